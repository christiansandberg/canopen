(* Source tie (DESIGN.md 4.3): NmtMaster.on_heartbeat as translated from the CURRENT source text (Gen/SrcC11.v) equals
   the model (C11). *)
From Coq Require Import ZArith List.
From CV Require Import Base.Val Gen.SrcC11 Model.Nmt.
Import ListNotations.
Open Scope Z_scope.

Theorem src_nmt_heartbeat_eq m b rest :
  on_heartbeat m (b :: rest) =
  Ok ((fst (src_nmt_heartbeat b), Some (snd (src_nmt_heartbeat b))), snd (src_nmt_heartbeat b)).
Proof.
  unfold on_heartbeat, src_nmt_heartbeat, hb_state. cbv zeta.
  destruct (Z.land b 127 =? 0); reflexivity.
Qed.
