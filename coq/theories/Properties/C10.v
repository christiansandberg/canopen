(* C10 - Frames reach exactly the handlers subscribed at that moment; outgoing frame format;
   listener filter; node scanner.
   Statements only: each theorem is [exact] of a lemma of Proofs/{Net_proofs.v, Src_eq_net.v};
   the examples are concrete instances.
   Model: Model/Net.v (Network.subscribe/unsubscribe/notify/__setitem__/__delitem__/send_message/
   send_periodic, PeriodicMessageTask, MessageListener, NodeScanner, RemoteNode/LocalNode
   associate_network/remove_network, RemoteNode.add_sdo with any number of additional SDO channels); reference: Model/RefNet.v (total multimap, predefined
   connection set, arithmetic scanner); table: Gen/NetTables.v (NodeScanner.SERVICES, LSS_RX_COBID)
   regenerated from /repo on every run. *)
From Coq Require Import ZArith List Bool.
From CV Require Import Base.Val Base.Tys Gen.NetTables Gen.SrcC10 Model.Net Model.RefNet Proofs.Net_proofs Proofs.Src_eq_net.
Import ListNotations.
Open Scope Z_scope.

(* For EVERY operation list (subscribe, unsubscribe one / all, node add / replace / remove, add_sdo
   on any node object at any time, a second associate_network of an attached node, connect /
   disconnect of the bus, notify, listener frames, scanner reset) started from a fresh Network: the deliveries of every step are
   those of the reference multimap run on the same list; the subscribers dict stands for the
   reference multimap; no reference list has a duplicate (so: exactly the subscribed callbacks,
   once each, in subscription order - the reference appends on subscription and deletes on
   unsubscription). *)
Theorem C10_dispatch_refines : forall ops : list op,
  map log_of (snd (run_ops ops init_net)) = snd (ref_run ops ref_init) /\
  (forall c, abs (subs (fst (run_ops ops init_net))) c = r_map (fst (ref_run ops ref_init)) c) /\
  (forall c, NoDup (r_map (fst (ref_run ops ref_init)) c)).
Proof. exact dispatch_refines. Qed.

(* ... and one notify in a state reached by any history invokes exactly the reference list of that
   id, in order, each with the frame's id, data and timestamp *)
Theorem C10_notify_delivers : forall ops c data ts,
  snd (notify c data ts (fst (run_ops ops init_net))) =
  map (fun h => (h, c, data, ts)) (r_map (fst (ref_run ops ref_init)) c).
Proof. exact notify_delivers. Qed.

Theorem C10_subscribe_idempotent : forall c h m, subscribe c h (subscribe c h m) = subscribe c h m.
Proof. exact subscribe_idempotent. Qed.

Theorem C10_double_subscribe_once : forall ops c u data ts,
  let s := fst (run_ops (ops ++ [OSub c u; OSub c u]) init_net) in
  s = fst (run_ops (ops ++ [OSub c u]) init_net) /\
  exists l, snd (notify c data ts s) = map (fun h => (h, c, data, ts)) l /\ NoDup l /\ In (HUser u) l.
Proof. exact double_subscribe_once. Qed.

(* invariant over arbitrary histories: a node object that is not the one registered under its
   node id (never added, removed, or replaced) has none of its callbacks in any list *)
Theorem C10_unregistered_not_subscribed : forall ops old,
  let s := fst (run_ops ops init_net) in
  lookup_node (o_nid old) (nodes s) <> Some old ->
  forall c k, ~ In (HNode old k) (abs (subs s) c).
Proof. exact unregistered_not_subscribed. Qed.

(* after a remove / replace of [old] that did not raise, no callback of [old] (SDO of the default
   and of every added channel, heartbeat, EMCY, NMT) is invoked by any continuation that does not add the very same object again *)
Theorem C10_removed_node_silent : forall ops1 old o ops2,
  let s := fst (run_ops ops1 init_net) in
  lookup_node (o_nid old) (nodes s) = Some old ->
  removes_or_replaces o old ->
  res_ok (snd (step o s)) = true ->
  Forall (fun o2 => o2 <> OAdd old) ops2 ->
  forall k c d t,
    ~ In (HNode old k, c, d, t) (concat (map log_of (snd (run_ops ops2 (fst (step o s)))))).
Proof. exact removed_node_silent. Qed.

(* outgoing frames, for every id in Z: id, remote flag as given, extended format iff id > 0x7FF,
   never an error frame, data as given (python-can drops the payload of a remote frame);
   exactly one frame is handed to the bus; no bus -> RuntimeError; same frame for periodic tasks *)
Theorem C10_frame_format : forall (c : Z) (data : list Z) (remote : bool),
  let f := mk_frame c data remote in
  (f_id f = c /\ f_remote f = remote /\ (f_ext f = true <-> c > 2047) /\ f_err f = false /\
   f_data f = (if remote then [] else data)) /\
  send_message true c data remote = Ok [f] /\
  send_message false c data remote = Err E_RUNTIME /\
  (forall p, periodic_task c data p remote = (f, [(f, p)])).
Proof. exact frame_format. Qed.

(* a periodic task after ANY sequence of update(data) calls, for both flavours of bus task (with /
   without modify_data): the stored message and every message handed to the bus keep the id, the
   remote flag, the frame format (extended iff id > 0x7FF) and carry the data of that update with
   dlc = its length (call_ok) *)
Theorem C10_periodic_update_format : forall modify period c data remote ds,
  Forall2 (fun d sc => frame_ok c remote (fst (fst sc)) /\ f_data (fst (fst sc)) = d /\
                       snd (fst sc) = Z.of_nat (length d) /\
                       Forall (call_ok c remote d) (snd sc))
          ds (periodic_updates modify period (periodic_start c data remote) ds).
Proof. exact periodic_update_format. Qed.

(* re-entrant callbacks (callbacks that subscribe / unsubscribe / add / remove nodes while a frame is
   being dispatched): the callbacks invoked for a frame are exactly the list of its id when the frame
   arrived, once each, in order, with the frame's arguments - independent of what the callbacks do
   (the same deliveries as without scripts); and a history without scripts is a plain history *)
Theorem C10_reentrant_dispatch_snapshot : forall scripts c data ts s,
  snd (notify_re scripts c data ts s) = Ok (snd (notify c data ts s)) /\
  snd (notify c data ts s) = map (fun h => (h, c, data, ts)) (abs (subs s) c).
Proof. exact reentrant_dispatch_snapshot. Qed.

Theorem C10_reentrant_no_scripts : forall ops s, run_ops_re [] ops s = run_ops ops s.
Proof. exact run_ops_re_nil. Qed.

Theorem C10_listener_filters : forall (f : frame) (s : net),
  (f_err f = true \/ f_remote f = true -> listener f s = (s, [])) /\
  (f_err f = false -> f_remote f = false -> listener f s = notify (f_id f) (f_data f) (f_ts f) s).
Proof. exact listener_filters. Qed.

(* the scanner, for every list of ids in Z (11-bit, 29-bit, anything): no duplicates; n is listed
   iff some received id is service + n with service in the regenerated SERVICES and 1 <= n <= 127;
   nodes are listed in order of first appearance (n sits right after everything discovered before
   the first id naming it) *)
Theorem C10_scanner_spec : forall ids : list Z,
  NoDup (scan ids) /\
  (forall n, In n (scan ids) <-> exists id, In id ids /\ names_node id n) /\
  (forall pre id post n, ids = pre ++ id :: post -> names_node id n ->
     (forall id', In id' pre -> ~ names_node id' n) ->
     exists rest, scan ids = scan pre ++ n :: rest).
Proof. exact scanner_spec. Qed.

(* the scanner is the arithmetic reference (no bit operations) *)
Theorem C10_scanner_is_reference : forall ids, scan ids = ref_scan ids.
Proof. exact scan_ref. Qed.

Definition nv_r5 : nobj := {| o_uid := 1; o_nid := 5; o_local := false |}.
Definition nv_l5 : nobj := {| o_uid := 2; o_nid := 5; o_local := true |}.

(* a history with two callbacks on one id, a duplicate subscription, a node, and an unsubscription:
   deliveries are non-empty and ordered *)
Example C10_nv_dispatch :
  map log_of (snd (run_ops [OSub 389 1; OSub 389 2; OSub 389 1; OAdd nv_r5; ONotify 389 [7] 10;
                            OUnsub 389 (Some (HUser 1)); ONotify 389 [8] 11; ONotify 0 [1; 5] 12] init_net))
  = [[]; []; []; []; [(HUser 1, 389, [7], 10); (HUser 2, 389, [7], 10)]; [];
     [(HUser 2, 389, [8], 11)]; [(HNode nv_r5 KNmt, 0, [1; 5], 12)]].
Proof. vm_compute. reflexivity. Qed.

(* the hypotheses of C10_removed_node_silent are met by a replacement remote -> local on id 5, and
   the replaced node did receive frames before *)
Example C10_nv_removed :
  let ops1 := [OAdd nv_r5; ONotify 1797 [5] 1] in
  let s := fst (run_ops ops1 init_net) in
  lookup_node (o_nid nv_r5) (nodes s) = Some nv_r5 /\
  removes_or_replaces (OAdd nv_l5) nv_r5 /\
  res_ok (snd (step (OAdd nv_l5) s)) = true /\
  Forall (fun o2 => o2 <> OAdd nv_r5) [ONotify 1797 [5] 2; ONotify 0 [1; 5] 3] /\
  map log_of (snd (run_ops ops1 init_net)) = [[]; [(HNode nv_r5 KHeartbeat, 1797, [5], 1)]] /\
  map log_of (snd (run_ops [ONotify 1797 [5] 2; ONotify 0 [1; 5] 3] (fst (step (OAdd nv_l5) s))))
    = [[]; [(HNode nv_l5 KNmt, 0, [1; 5], 3)]].
Proof.
  vm_compute. repeat split; try reflexivity.
  - right. exists nv_l5. repeat split; try reflexivity. discriminate.
  - repeat constructor; discriminate.
Qed.

(* the same with an additional SDO channel (add_sdo while on the network): the extra client saw
   a frame on its tx id 0x5C5 before the replacement and sees none afterwards, nor after re-creating
   channels on the removed object *)
Definition nv_r5' : nobj := {| o_uid := 3; o_nid := 5; o_local := false |}.
Example C10_nv_removed_extra_sdo :
  let ops1 := [OAdd nv_r5; OAddSdo nv_r5 1605 1477; ONotify 1477 [96] 1] in
  let s := fst (run_ops ops1 init_net) in
  let ops2 := [ONotify 1477 [128] 2; ONotify 1413 [128] 3; OAddSdo nv_r5 1606 1478; ONotify 1478 [1] 4] in
  lookup_node (o_nid nv_r5) (nodes s) = Some nv_r5 /\
  removes_or_replaces (OAdd nv_r5') nv_r5 /\
  res_ok (snd (step (OAdd nv_r5') s)) = true /\
  Forall (fun o2 => o2 <> OAdd nv_r5) ops2 /\
  map log_of (snd (run_ops ops1 init_net)) = [[]; []; [(HNode nv_r5 (KSdoExtra 1), 1477, [96], 1)]] /\
  map log_of (snd (run_ops ops2 (fst (step (OAdd nv_r5') s))))
    = [[]; [(HNode nv_r5' KSdoResp, 1413, [128], 3)]; []; []].
Proof.
  vm_compute. repeat split; try reflexivity.
  - right. exists nv_r5'. repeat split; try reflexivity. discriminate.
  - repeat constructor; discriminate.
Qed.

(* re-association of an attached node and a disconnect / connect cycle change nothing: one delivery
   per callback before and after, and removal still silences the node *)
Example C10_nv_reassoc_reconnect :
  map log_of (snd (run_ops [OAdd nv_r5; OSub 133 1; OReassoc nv_r5; ONotify 133 [1] 1; ODisconnect; OConnect;
                            ONotify 133 [2] 2; ONotify 2020 [3] 3; ODel 5; ONotify 133 [4] 4] init_net))
  = [[]; []; []; [(HNode nv_r5 KEmcy, 133, [1], 1); (HUser 1, 133, [1], 1)]; []; [];
     [(HNode nv_r5 KEmcy, 133, [2], 2); (HUser 1, 133, [2], 2)]; [(HLss, 2020, [3], 3)]; [];
     [(HUser 1, 133, [4], 4)]].
Proof. vm_compute. reflexivity. Qed.

Example C10_nv_periodic_update :
  map (fun sc => (f_ext (fst (fst sc)), f_data (fst (fst sc)), snd (fst sc), length (snd sc)))
      (periodic_updates false 10 (periodic_start 291 [1; 2; 3] false) [[4; 5; 6; 7]; [4; 5; 6; 7]])
  = [(false, [4; 5; 6; 7], 4, 2%nat); (false, [4; 5; 6; 7], 4, 0%nat)].
Proof. vm_compute. reflexivity. Qed.

(* a one-shot callback (u0 unsubscribes itself when invoked) between two others: all three get the
   first frame, the other two the second *)
Example C10_nv_reentrant :
  map log_of (snd (run_ops_re [(0, OUnsub 291 (Some (HUser 0)))]
                     [OSub 291 0; OSub 291 1; OSub 291 2; ONotify 291 [1] 1; ONotify 291 [2] 2] init_net))
  = [[]; []; []; [(HUser 0, 291, [1], 1); (HUser 1, 291, [1], 1); (HUser 2, 291, [1], 1)];
     [(HUser 1, 291, [2], 2); (HUser 2, 291, [2], 2)]].
Proof. vm_compute. reflexivity. Qed.

Example C10_nv_scanner :
  scan [1797; 2433; 386; 1797; 128; 1539; 536872707; 1409; (-123)] = [5; 2; 1] /\
  names_node 1797 5 /\ ~ names_node 2433 1.
Proof.
  split; [vm_compute; reflexivity|]. split.
  - split; [split; discriminate|]. exists 1792. split; [vm_compute; tauto | reflexivity].
  - intros [_ [svc [Hin Heq]]]. vm_compute in Hin.
    repeat (destruct Hin as [Hin|Hin]; [subst svc; discriminate Heq|]). destruct Hin.
Qed.

Example C10_nv_frame :
  f_ext (mk_frame 2047 [1; 2] false) = false /\ f_ext (mk_frame 2048 [1; 2] false) = true /\
  f_data (mk_frame 2048 [1; 2] false) = [1; 2] /\
  listener {| f_id := 389; f_data := [1]; f_remote := true; f_ext := false; f_err := false; f_ts := 4 |}
           (fst (run_ops [OSub 389 1] init_net)) = (fst (run_ops [OSub 389 1] init_net), []) /\
  snd (listener {| f_id := 389; f_data := [1]; f_remote := false; f_ext := false; f_err := false; f_ts := 4 |}
           (fst (run_ops [OSub 389 1] init_net))) = [(HUser 1, 389, [1], 4)].
Proof. vm_compute. repeat split; reflexivity. Qed.

(* Tie to the source text: NodeScanner.on_message_received as translated from the CURRENT source by
   tools/py2coq.py (Gen/SrcC10.v, regenerated on every run) is the model's scan_step. *)
Theorem C10_source_scanner_is_model : forall found can_id,
  src_scanner_step SERVICES found can_id = scan_step found can_id.
Proof. exact src_scanner_step_eq. Qed.

Print Assumptions C10_dispatch_refines.
Print Assumptions C10_notify_delivers.
Print Assumptions C10_subscribe_idempotent.
Print Assumptions C10_double_subscribe_once.
Print Assumptions C10_unregistered_not_subscribed.
Print Assumptions C10_removed_node_silent.
Print Assumptions C10_frame_format.
Print Assumptions C10_periodic_update_format.
Print Assumptions C10_reentrant_dispatch_snapshot.
Print Assumptions C10_reentrant_no_scripts.
Print Assumptions C10_listener_filters.
Print Assumptions C10_scanner_spec.
Print Assumptions C10_scanner_is_reference.
Print Assumptions C10_source_scanner_is_model.
