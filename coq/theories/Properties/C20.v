(* C20 - Physical, described and bit-field views agree with the raw value.
   Statements only: each theorem is [exact] of a lemma of Proofs/{Views_proofs.v, Src_eq_c20.v};
   the examples are concrete instances.
   Model: Model/Views.v (objectdictionary encode/decode_phys, _desc, _bits; variable.py phys /
   desc / bits accessors and class Bits), tables: Gen/Tables.v regenerated from /repo on every run.
   Python int = Z; float = Q: binary64 rounding of value/factor and value*factor is NOT modelled,
   therefore the scaling theorems carry the suffix _partial. *)
From Coq Require Import ZArith QArith Qabs List Bool.
From CV Require Import Base.Val Base.Bytes Base.Bits Base.Tys Gen.Tables Model.Codec Model.Views
  Proofs.Codec_proofs Proofs.Views_proofs Gen.SrcC20 Proofs.Src_eq_c20.
Import ListNotations.
Open Scope Z_scope.

(* Bit fields.
   [spells defs key lo hi]: the subscript key names the contiguous range lo..hi as a bit number
   (lo = hi), a list whose members are exactly lo..hi (any order, repeats allowed), a slice
   [lo:hi+1] with the start omitted when lo = 0 and the step omitted or 1, or a name defined
   in bit_definitions as such a list.
   Assignment changes exactly the bits lo..hi of the raw value (any Python int, also negative),
   bit i of the result is bit i-lo of the value; non-negative raw values stay non-negative and
   a raw value of n bits stays within n bits when the range lies inside them. *)
Theorem C20_bits_set_exact : forall defs key lo hi raw v,
  spells defs key lo hi -> 0 <= lo <= hi -> 0 <= v < 2 ^ (hi - lo + 1) ->
  exists r, bits_write defs raw key v = Ok r /\
    r = set_field raw lo (hi - lo + 1) v /\
    (forall i, 0 <= i ->
       Z.testbit r i = if (lo <=? i) && (i <=? hi) then Z.testbit v (i - lo) else Z.testbit raw i) /\
    (0 <= raw -> 0 <= r) /\
    (forall n, 0 <= raw < 2 ^ n -> hi < n -> 0 <= r < 2 ^ n).
Proof. exact bits_set_exact. Qed.

Theorem C20_bits_get_after_set : forall defs key lo hi raw v,
  spells defs key lo hi -> 0 <= lo <= hi -> 0 <= v < 2 ^ (hi - lo + 1) ->
  exists r, bits_write defs raw key v = Ok r /\ bits_read defs r key = Ok v.
Proof. exact bits_get_after_set. Qed.

(* reading returns exactly the bits lo..hi of the current raw value *)
Theorem C20_bits_get_exact : forall defs key lo hi raw,
  spells defs key lo hi -> 0 <= lo <= hi ->
  bits_read defs raw key = Ok (get_field raw lo (hi - lo + 1)).
Proof. exact bits_get_exact. Qed.

(* Any list of non-negative bit numbers, contiguous or not.  The code does not spread the value
   over the listed bits: it clears the listed bits and ORs in the value shifted by the smallest
   listed bit.  "Exactly the listed bits change, and read-back returns the value" holds iff the
   value has the shape of the list ([fits]); otherwise the value leaks into unlisted bits
   (bits_leak_example: list [0;2], value 2 sets bit 1). *)
Theorem C20_bits_set_general : forall raw l v, nonneg_bits l -> l <> [] ->
  exists m r, list_min l = Ok m /\ encode_bits_list raw l v = Ok r /\
    (forall i, 0 <= i -> Z.testbit r i = (Z.testbit raw i && negb (zmem i l)) || Z.testbit v (i - m)) /\
    (fits l m v ->
       (forall i, 0 <= i -> Z.testbit r i = if zmem i l then Z.testbit v (i - m) else Z.testbit raw i) /\
       decode_bits_list r l = Ok v).
Proof. exact bits_set_general. Qed.

(* Descriptions.
   A table never holds a value twice (it is a dict filled by add_value_description). *)
Theorem C20_desc_table_keys_distinct : forall adds, NoDup (map fst (build_descs adds)).
Proof. exact build_descs_nodup. Qed.

(* encode then decode is the identity; with pairwise distinct descriptions decode then encode is
   too, and every entry is reached both ways *)
Theorem C20_desc_roundtrip : forall t, NoDup (map fst t) ->
  (forall d v, encode_desc t d = Ok v -> decode_desc t v = Ok d) /\
  (NoDup (map snd t) -> forall v d, decode_desc t v = Ok d -> encode_desc t d = Ok v) /\
  (forall v d, In (v, d) t ->
     decode_desc t v = Ok d /\ (NoDup (map snd t) -> encode_desc t d = Ok v)).
Proof. exact desc_roundtrip. Qed.

(* without distinctness: the first entry in insertion order that carries the text *)
Theorem C20_desc_encode_first : forall t d v,
  encode_desc t d = Ok v <->
  exists t1 t2, t = t1 ++ (v, d) :: t2 /\ forall e, In e t1 -> snd e <> d.
Proof. exact desc_encode_first. Qed.

Theorem C20_desc_errors : forall t,
  (forall d, encode_desc [] d = Err E_OD) /\ (forall v, decode_desc [] v = Err E_OD) /\
  (t <> [] -> forall d, ~ In d (map snd t) -> encode_desc t d = Err E_VALUE) /\
  (forall v, ~ In v (map fst t) -> decode_desc t v = Err E_OD).
Proof. exact desc_errors. Qed.

(* Scaling.
   Full statement of the property: with binary64 arithmetic, raw = the integer nearest to
   value/factor and |value - raw*factor| <= |factor|/2.  Proved here over Q (exact rationals);
   what is missing is the rounding of the two float operations value/factor and raw*factor.
   raw is the integer nearest to value/factor (no integer is nearer), ties go to the even
   integer, and the physical value read back is within half a scaling step. *)
Theorem C20_phys_half_step_partial : forall od v, int_od od -> ~ (od_factor od == 0)%Q ->
  let f := od_factor od in
  exists raw, encode_phys od v = Ok raw /\
    raw = round_half_even (v / f) /\
    (forall k, Qabs (v / f - inject_Z raw) <= Qabs (v / f - inject_Z k))%Q /\
    ((Qabs (v / f - inject_Z raw) == 1 # 2)%Q -> Z.even raw = true) /\
    decode_phys od raw = Ok (inject_Z raw * f)%Q /\
    (Qabs (v - inject_Z raw * f) <= Qabs f * (1 # 2))%Q.
Proof. exact phys_half_step. Qed.

(* the physical value of any raw value scales back to that raw value *)
Theorem C20_phys_raw_roundtrip_partial : forall od raw, int_od od -> ~ (od_factor od == 0)%Q ->
  exists p, decode_phys od raw = Ok p /\ encode_phys od p = Ok raw.
Proof. exact phys_raw_roundtrip. Qed.

(* int_od covers every CiA 301 integer type (regenerated INTEGER_TYPES) *)
Theorem C20_integer_types_scaled : forall t s w,
  In (t, (s, w)) cia301_int_types -> zmem t INTEGER_TYPES = true.
Proof. exact integer_types_scaled. Qed.

(* The accessor layer over any store.
   The accessors of variable.py reach the stored value only through get_raw / set_raw.  For every
   store in which a successful write is read back (the one law), whatever else it does: *)
Theorem C20_views_over_store_bits : forall (S : Type) (get_raw : S -> res Z) (set_raw : S -> Z -> res S),
  (forall s v s', set_raw s v = Ok s' -> get_raw s' = Ok v) ->
  forall od s raw key lo hi v,
    get_raw s = Ok raw -> spells (od_bitdefs od) key lo hi -> 0 <= lo <= hi -> 0 <= v < 2 ^ (hi - lo + 1) ->
    let r := set_field raw lo (hi - lo + 1) v in
    bits_get get_raw od s key = Ok (get_field raw lo (hi - lo + 1)) /\
    bits_set get_raw set_raw od s key v = set_raw s r /\
    (forall i, 0 <= i ->
       Z.testbit r i = if (lo <=? i) && (i <=? hi) then Z.testbit v (i - lo) else Z.testbit raw i) /\
    forall s', set_raw s r = Ok s' -> get_raw s' = Ok r /\ bits_get get_raw od s' key = Ok v.
Proof. exact @store_bits. Qed.

(* a Bits object kept by the caller: read after assignment returns the value without asking the store *)
Theorem C20_views_over_store_bits_held : forall (S : Type) (get_raw : S -> res Z) (set_raw : S -> Z -> res S)
    od s raw key lo hi v,
    get_raw s = Ok raw -> spells (od_bitdefs od) key lo hi -> 0 <= lo <= hi -> 0 <= v < 2 ^ (hi - lo + 1) ->
    bits_held get_raw set_raw od s key v =
    rbind (set_raw s (set_field raw lo (hi - lo + 1) v)) (fun s' => Ok (s', Ok v)).
Proof. exact @store_bits_held. Qed.

(* a store whose READ fails (write-only object, SDO abort on upload) while writes would succeed: the failure comes out
   of every getter and out of the read-modify-write assignment to a bit field unchanged; no raw value is computed and
   nothing is written (the result carries no new store) *)
Theorem C20_views_over_store_read_fails : forall (S : Type) (get_raw : S -> res Z) (set_raw : S -> Z -> res S) od s,
    (forall a, get_raw s = Abort a ->
       (forall key, bits_get get_raw od s key = Abort a) /\
       (forall key v, bits_set get_raw set_raw od s key v = Abort a) /\
       (forall key v, bits_held get_raw set_raw od s key v = Abort a) /\
       phys_get get_raw od s = Abort a /\ desc_get get_raw od s = Abort a) /\
    (forall k, get_raw s = Err k ->
       (forall key, bits_get get_raw od s key = Err k) /\
       (forall key v, bits_set get_raw set_raw od s key v = Err k) /\
       (forall key v, bits_held get_raw set_raw od s key v = Err k) /\
       phys_get get_raw od s = Err k /\ desc_get get_raw od s = Err k).
Proof. exact @store_read_fails. Qed.

Theorem C20_views_over_store_desc : forall (S : Type) (get_raw : S -> res Z) (set_raw : S -> Z -> res S),
  (forall s v s', set_raw s v = Ok s' -> get_raw s' = Ok v) ->
  forall od s raw, get_raw s = Ok raw -> NoDup (map fst (od_descs od)) ->
    desc_get get_raw od s = decode_desc (od_descs od) raw /\
    (forall d k, encode_desc (od_descs od) d = Err k -> desc_set set_raw od s d = Err k) /\
    forall d v, encode_desc (od_descs od) d = Ok v ->
      desc_set set_raw od s d = set_raw s v /\
      forall s', set_raw s v = Ok s' -> get_raw s' = Ok v /\ desc_get get_raw od s' = Ok d.
Proof. exact @store_desc. Qed.

Theorem C20_views_over_store_phys_partial : forall (S : Type) (get_raw : S -> res Z) (set_raw : S -> Z -> res S),
  (forall s v s', set_raw s v = Ok s' -> get_raw s' = Ok v) ->
  forall od s v, int_od od -> ~ (od_factor od == 0)%Q ->
    let f := od_factor od in
    let raw := round_half_even (v / f) in
    phys_set set_raw od s v = set_raw s raw /\
    forall s', set_raw s raw = Ok s' ->
      get_raw s' = Ok raw /\
      phys_get get_raw od s' = Ok (inject_Z raw * f)%Q /\
      (Qabs (v - inject_Z raw * f) <= Qabs f * (1 # 2))%Q.
Proof. exact @store_phys. Qed.

(* SDO and PDO objects are such stores.
   An integer object kept as bytes inside a buffer (the SDO server's stored value; a PDO
   variable mapped byte-aligned with its full length): writing a value that fits replaces exactly
   the object's bytes by the little-endian encoding, anything else is refused (ValueError), and
   what was written is read back. *)
Theorem C20_cell_set_spec : forall t p s w c v,
  zassoc t STRUCT_TYPES = Some p -> int_packer p = Some (s, w) ->
  if in_range s w v
  then cell_set t c v = Ok {| c_pre := c_pre c; c_cur := le_encode (Z.to_nat (w / 8)) v; c_post := c_post c |}
  else cell_set t c v = Err E_VALUE.
Proof. exact cell_set_spec. Qed.

Theorem C20_cell_is_store : forall t p s w,
  zassoc t STRUCT_TYPES = Some p -> int_packer p = Some (s, w) ->
  forall c v c', cell_set t c v = Ok c' -> cell_get t c' = Ok v.
Proof. exact cell_law. Qed.

(* end to end on an unsigned object of width w inside a buffer *)
Theorem C20_bits_on_cell : forall od t p w pre post raw key lo hi v,
  zassoc t STRUCT_TYPES = Some p -> int_packer p = Some (false, w) ->
  0 <= raw < 2 ^ w -> spells (od_bitdefs od) key lo hi -> 0 <= lo <= hi -> hi < w -> 0 <= v < 2 ^ (hi - lo + 1) ->
  let n := Z.to_nat (w / 8) in
  let c := {| c_pre := pre; c_cur := le_encode n raw; c_post := post |} in
  let r := set_field raw lo (hi - lo + 1) v in
  let c' := {| c_pre := pre; c_cur := le_encode n r; c_post := post |} in
  bits_set (cell_get t) (cell_set t) od c key v = Ok c' /\
  bits_get (cell_get t) od c' key = Ok v /\
  cell_get t c' = Ok r /\ 0 <= r < 2 ^ w.
Proof. exact bits_on_cell. Qed.

Example C20_nv_spellings :
  let defs := build_bitdefs [([102; 111; 111], [5; 3; 4])] in      (* "foo" -> [5,3,4] *)
  sassoc [102; 111; 111] defs = Some [5; 3; 4] /\
  bits_write defs 255 (KInt 4) 0 = Ok 239 /\
  bits_write defs 255 (KList [4; 3; 5]) 2 = Ok 215 /\
  bits_write defs 255 (KSlice (Some 3) (Some 6) None) 2 = Ok 215 /\
  bits_write defs 255 (KSlice None (Some 3) (Some 1)) 5 = Ok 253 /\
  bits_write defs 255 (KName [102; 111; 111]) 2 = Ok 215 /\
  bits_read defs 215 (KName [102; 111; 111]) = Ok 2 /\
  bits_write defs (-1) (KSlice (Some 3) (Some 6) None) 2 = Ok (-41).
Proof. vm_compute. repeat split; reflexivity. Qed.

Example C20_nv_desc :
  let t := build_descs [(0, [111; 102; 102]); (1, [111; 110]); (3, [111; 110]); (1, [117; 112])] in
  t = [(0, [111; 102; 102]); (1, [117; 112]); (3, [111; 110])] /\
  encode_desc t [111; 110] = Ok 3 /\ decode_desc t 1 = Ok [117; 112] /\
  encode_desc t [120] = Err E_VALUE /\ decode_desc t 2 = Err E_OD /\
  encode_desc [(1, [111; 110]); (3, [111; 110])] [111; 110] = Ok 1.
Proof. vm_compute. repeat split; reflexivity. Qed.

Example C20_nv_phys :
  let od := mkod dt_INTEGER16 1 10 [] [] in                          (* factor 0.1 *)
  zmem (od_dt od) INTEGER_TYPES = true /\ Qeq_bool (od_factor od) 0 = false /\
  encode_phys od (mkq 1234 100) = Ok 123 /\                         (* 12.34 -> 123 *)
  encode_phys od (mkq 25 100) = Ok 2 /\ encode_phys od (mkq 35 100) = Ok 4 /\   (* ties to even *)
  encode_phys od (mkq (-25) 100) = Ok (-2) /\
  encode_phys (mkod dt_INTEGER16 (-4) 1 [] []) (mkq 10 1) = Ok (-2) /\
  round_half_even (mkq (-7) 2) = -4.
Proof. vm_compute. repeat split; reflexivity. Qed.

Example C20_nv_cell :
  zassoc dt_UNSIGNED16 STRUCT_TYPES = Some (PStruct false 16) /\
  int_packer (PStruct false 16) = Some (false, 16) /\
  run_views (VOps dt_UNSIGNED16 1 1 [] [] [170] [0; 0] [85]
              [OSetRaw 4660; OSetBits (KSlice (Some 4) (Some 12) None) 255; OGetBits (KInt 15); OGetRaw]) =
  VL [VL [VNone; VB [170; 52; 18; 85]]; VL [VNone; VB [170; 244; 31; 85]];
      VL [VZ 0; VB [170; 244; 31; 85]]; VL [VZ 8180; VB [170; 244; 31; 85]]].
Proof. vm_compute. repeat split; reflexivity. Qed.

(* Tie to the source text: ODVariable.decode_bits / encode_bits as translated from the CURRENT source by
   tools/py2coq.py (Gen/SrcC20.v, regenerated on every run) are the model's functions on every non-empty
   list of non-negative bit numbers (the bit-definition lookup by name is resolved before, see resolve). *)
Theorem C20_source_decode_bits_is_model : forall value bits, bits <> [] -> Forall (fun b => 0 <= b) bits ->
  decode_bits_list value bits = Ok (src_decode_bits value bits).
Proof. exact src_decode_bits_eq. Qed.

Theorem C20_source_encode_bits_is_model : forall original bits bit_value, bits <> [] -> Forall (fun b => 0 <= b) bits ->
  encode_bits_list original bits bit_value = Ok (src_encode_bits original bits bit_value).
Proof. exact src_encode_bits_eq. Qed.

(* The second public route: var.read(fmt) / var.write(value, fmt).
   The dispatch on fmt, translated from the CURRENT source text of the two methods (they must consist of nothing but
   the dispatch: any conversion done in place does not translate), is the model's rw_route ... *)
Theorem C20_source_read_route_is_model : forall fmt, src_read_route fmt = rw_route fmt.
Proof. exact src_read_route_eq. Qed.

Theorem C20_source_write_route_is_model : forall fmt, src_write_route fmt 0 = rw_route fmt.
Proof. exact src_write_route_eq. Qed.

(* ... and going through the method is going through the attribute: same result, same store afterwards, so every
   theorem above about .raw / .phys / .desc holds for read / write; an unknown format reads None and writes nothing. *)
Theorem C20_read_write_agree : forall od c,
  (forall v, step_op od c (OWrite FMT_RAW (OSetRaw v)) = step_op od c (OSetRaw v)) /\
  (forall n d, step_op od c (OWrite FMT_PHYS (OSetPhys n d)) = step_op od c (OSetPhys n d)) /\
  (forall d, step_op od c (OWrite FMT_DESC (OSetDesc d)) = step_op od c (OSetDesc d)) /\
  step_op od c (ORead FMT_RAW) = step_op od c OGetRaw /\
  step_op od c (ORead FMT_PHYS) = step_op od c OGetPhys /\
  step_op od c (ORead FMT_DESC) = step_op od c OGetDesc /\
  (forall fmt o, rw_route fmt = 0 -> step_op od c (OWrite fmt o) = (VNone, c) /\ step_op od c (ORead fmt) = (VNone, c)).
Proof. exact rw_agrees. Qed.

Print Assumptions C20_bits_set_exact.
Print Assumptions C20_bits_get_after_set.
Print Assumptions C20_bits_get_exact.
Print Assumptions C20_bits_set_general.
Print Assumptions C20_desc_table_keys_distinct.
Print Assumptions C20_desc_roundtrip.
Print Assumptions C20_desc_encode_first.
Print Assumptions C20_desc_errors.
Print Assumptions C20_phys_half_step_partial.
Print Assumptions C20_phys_raw_roundtrip_partial.
Print Assumptions C20_integer_types_scaled.
Print Assumptions C20_views_over_store_bits.
Print Assumptions C20_views_over_store_bits_held.
Print Assumptions C20_views_over_store_desc.
Print Assumptions C20_views_over_store_phys_partial.
Print Assumptions C20_cell_set_spec.
Print Assumptions C20_cell_is_store.
Print Assumptions C20_bits_on_cell.
Print Assumptions C20_source_decode_bits_is_model.
Print Assumptions C20_source_encode_bits_is_model.
Print Assumptions C20_source_read_route_is_model.
Print Assumptions C20_source_write_route_is_model.
Print Assumptions C20_read_write_agree.
Print Assumptions C20_views_over_store_read_fails.
