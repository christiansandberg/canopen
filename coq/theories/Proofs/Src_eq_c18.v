(* Source tie (DESIGN.md 4.3) for C18: the decision logic of LssMaster as translated from the CURRENT source text of canopen/lss.py
   (Gen/SrcC18.v, tools/tables/src_c18.py) determines the model functions of Model/Lss.v: the probe frame of
   __send_fast_scan_message and its "answered iff a 0x4F frame arrived" decision, one step of each of fast_scan's two
   loops and their conditions, the initial values of the scan, the response checks of __send_inquire_node_id /
   __send_inquire_lss_address / __send_configure, the queue clean-up / need-response / time-out decisions of
   __send_command, and the arguments the public configure services hand to __send_configure.
   while-loops are outside the translator's subset: the iteration (scan_bits, scan_parts) is hand-written; what is
   proved here is that one unfolding of it is the translated loop body under the translated loop condition. *)
From Coq Require Import ZArith List Lia.
From CV Require Import Base.Val Base.Bytes Base.Tys Gen.LssTables Gen.SrcC18 Model.Lss Proofs.Lss_proofs.
Import ListNotations.
Open Scope Z_scope.

Section AnyPeer.
  Context {P : Type} (peer : P -> Z -> list Z -> P * list (Z * list Z)).
  Notation M := (mstate P).

  (* __send_fast_scan_message: frame layout '<BIBBB' = (0x51, id number, bit_check, lss_sub, lss_next) and the
     decision: silence (LssError) = no, otherwise yes iff byte 0 of the reply is CS_IDENTIFY_SLAVE *)
  Lemma src_send_fast_scan_message_eq (st : M) idn bc sub nxt : u32 idn -> u8 bc -> u8 sub -> u8 nxt ->
    let '(p0, p1, p2, p3, p4, _) := src_send_fast_scan_message idn bc sub nxt true 0 in
    send_fast_scan_message peer st idn bc sub nxt =
    match send_command peer st (p0 :: le_encode 4 p1 ++ [p2; p3; p4]) with
    | (st1, Err k) =>
        if k =? E_LSS then (st1, Ok (snd (src_send_fast_scan_message idn bc sub nxt true 0))) else (st1, Err k)
    | (st1, Abort c) => (st1, Abort c)
    | (st1, Ok None) => (st1, Err E_TYPE)
    | (st1, Ok (Some [])) => (st1, Err E_STRUCT)
    | (st1, Ok (Some (r0 :: _))) => (st1, Ok (snd (src_send_fast_scan_message idn bc sub nxt false r0)))
    end.
  Proof.
    intros Hi Hb Hs Hn. unfold src_send_fast_scan_message, send_fast_scan_message. cbn [snd].
    rewrite pack_fast_scan_ok by assumption. cbn [sbind].
    destruct (send_command peer st (CS_FAST_SCAN :: le_encode 4 idn ++ [bc; sub; nxt])) as [st1 [[[|r0 t]|]|k|c]];
      try reflexivity.
    cbn [unpack_B sbind]. destruct (r0 =? CS_IDENTIFY_SLAVE); reflexivity.
  Qed.

  Lemma src_scan_bits_continue_eq n :
    src_scan_bits_continue (Z.of_nat n) = match n with O => false | S _ => true end.
  Proof. unfold src_scan_bits_continue. destruct n; lia. Qed.

  (* one unfolding of scan_bits = the translated loop body: lss_bit_check -= 1, the probe with the new bit_check,
     lss_id[lss_sub] |= 1 << lss_bit_check iff the probe was not answered *)
  Lemma src_scan_bit_eq k (st : M) idn sub nxt :
    fst (src_scan_bit idn (Z.of_nat (S k)) sub nxt true) = Z.of_nat k /\
    scan_bits peer (S k) st idn sub nxt =
    sbind (send_fast_scan_message peer st idn (fst (src_scan_bit idn (Z.of_nat (S k)) sub nxt true)) sub nxt)
          (fun st found => scan_bits peer k st (snd (src_scan_bit idn (Z.of_nat (S k)) sub nxt found)) sub nxt).
  Proof.
    unfold src_scan_bit. cbn [negb fst snd].
    replace (Z.of_nat (S k) - 1) with (Z.of_nat k) by lia. split; [reflexivity|].
    cbn [scan_bits].
    destruct (send_fast_scan_message peer st idn (Z.of_nat k) sub nxt) as [st1 [found|e|c]]; cbn [sbind]; try reflexivity.
    destruct found; reflexivity.
  Qed.

  Lemma src_scan_parts_continue_eq n : (n <= 4)%nat ->
    src_scan_parts_continue (4 - Z.of_nat n) = match n with O => false | S _ => true end.
  Proof. intros _. unfold src_scan_parts_continue. destruct n; lia. Qed.

  (* one unfolding of scan_parts = lss_bit_check = 32, the inner loop (which ends at the only value reachable from
     32 that fails its condition, 0), lss_next = (lss_sub + 1) & 3, the confirmation probe with that bit_check and
     the new lss_next, `return False, None` when it is not answered, otherwise lss_sub += 1 *)
  Lemma src_scan_part_eq k (st : M) l sub nxt :
    src_scan_bits_continue 0 = false /\
    scan_parts peer (S k) st l sub nxt =
    sbind (scan_bits peer (Z.to_nat src_scan_part_pre) st (nth (Z.to_nat sub) l 0) sub nxt) (fun st idn =>
    sbind (send_fast_scan_message peer st idn 0 sub (snd (src_scan_part_post sub nxt true))) (fun st ok =>
    let '(go, sub', nxt') := src_scan_part_post sub nxt ok in
    if go then scan_parts peer k st (upd l sub idn) sub' nxt' else (st, Ok (false, None)))).
  Proof.
    split; [reflexivity|]. rewrite scan_parts_S.
    change (Z.to_nat src_scan_part_pre) with 32%nat.
    destruct (scan_bits peer 32 st (nth (Z.to_nat sub) l 0) sub nxt) as [st1 [idn|e|c]]; cbn [sbind]; try reflexivity.
    unfold src_scan_part_post. cbn [negb snd].
    destruct (send_fast_scan_message peer st1 idn 0 sub (Z.land (sub + 1) 3)) as [st2 [ok|e|c]]; cbn [sbind]; try reflexivity.
    destruct ok; reflexivity.
  Qed.

  Lemma src_fast_scan_init_eq (st : M) :
    let '(id0, bc, sub, nxt) := src_fast_scan_init in
    fast_scan peer st =
    sbind (send_fast_scan_message peer st id0 bc sub nxt) (fun st ok =>
    if ok then scan_parts peer 4 st [id0; id0; id0; id0] sub nxt else (st, Ok (false, None))).
  Proof. reflexivity. Qed.

  Lemma src_send_inquire_node_id_eq (st : M) :
    inquire_node_id peer st =
    match send_command peer st [fst (fst (src_send_inquire_node_id 0 0 0)); 0; 0; 0; 0; 0; 0; 0] with
    | (st1, Ok (Some (r0 :: r1 :: _))) =>
        let '(_, code, v) := src_send_inquire_node_id r0 r1 0 in
        if code =? 1 then (st1, Ok v) else (st1, Err E_LSS)
    | (st1, Ok (Some _)) => (st1, Err E_STRUCT)
    | (st1, Ok None) => (st1, Err E_TYPE)
    | (st1, Err k) => (st1, Err k)
    | (st1, Abort c) => (st1, Abort c)
    end.
  Proof.
    change (fst (fst (src_send_inquire_node_id 0 0 0))) with CS_INQUIRE_NODE_ID.
    unfold inquire_node_id, src_send_inquire_node_id.
    destruct (send_command peer st [CS_INQUIRE_NODE_ID; 0; 0; 0; 0; 0; 0; 0]) as [st1 [[[|r0 [|r1 t]]|]|k|c]];
      try reflexivity.
    cbn [sbind unpack_BB fst snd]. destruct (r0 =? CS_INQUIRE_NODE_ID); reflexivity.
  Qed.

  Lemma src_send_inquire_lss_address_eq (st : M) cs : u8 cs ->
    (forall r0 r1 b, fst (fst (src_send_inquire_lss_address cs r0 r1 b)) = cs) /\
    inquire_lss_address peer st cs =
    match send_command peer st [cs; 0; 0; 0; 0; 0; 0; 0] with
    | (st1, Ok (Some l)) =>
        if 5 <=? zlen l then
          let '(_, code, v) := src_send_inquire_lss_address cs (nth 0 l 0) (le_decode (firstn 4 (skipn 1 l))) 0 in
          if code =? 1 then (st1, Ok v) else (st1, Err E_LSS)
        else (st1, Err E_STRUCT)
    | (st1, Ok None) => (st1, Err E_TYPE)
    | (st1, Err k) => (st1, Err k)
    | (st1, Abort c) => (st1, Abort c)
    end.
  Proof.
    intros Hc. unfold inquire_lss_address, src_send_inquire_lss_address. split.
    { intros r0 r1 b. destruct (negb (r0 =? cs)); reflexivity. }
    rewrite byte_arg_ok by assumption. cbn [sbind].
    destruct (send_command peer st [cs; 0; 0; 0; 0; 0; 0; 0]) as [st1 [[l|]|k|c]]; try reflexivity.
    cbn [sbind unpack_BI]. destruct (5 <=? zlen l); cbn [sbind fst snd]; [|reflexivity].
    destruct (nth 0 l 0 =? cs); reflexivity.
  Qed.

  (* __send_configure: bytes 0..2 of the request, specifier check, error code check *)
  Lemma src_send_configure_eq (st : M) cs v1 v2 : u8 cs -> u8 v1 -> u8 v2 ->
    (forall r0 r1 x y z, let '(b0, b1, b2, _) := src_send_configure cs v1 v2 r0 r1 x y z in (b0, b1, b2) = (cs, v1, v2)) /\
    send_configure peer st cs v1 v2 =
    match send_command peer st [cs; v1; v2; 0; 0; 0; 0; 0] with
    | (st1, Ok (Some (r0 :: r1 :: _))) =>
        let '(_, _, _, code) := src_send_configure cs v1 v2 r0 r1 0 0 0 in
        if code =? 1 then (st1, Ok tt) else (st1, Err E_LSS)
    | (st1, Ok (Some _)) => (st1, Err E_STRUCT)
    | (st1, Ok None) => (st1, Err E_TYPE)
    | (st1, Err k) => (st1, Err k)
    | (st1, Abort c) => (st1, Abort c)
    end.
  Proof.
    intros H0 H1 H2. unfold send_configure, src_send_configure. split.
    { intros r0 r1 x y z. destruct (negb (r0 =? cs)); [reflexivity|]. destruct (negb (r1 =? ERROR_NONE)); reflexivity. }
    rewrite !byte_arg_ok by assumption. cbn [sbind].
    destruct (send_command peer st [cs; v1; v2; 0; 0; 0; 0; 0]) as [st1 [[[|r0 [|r1 t]]|]|k|c]]; try reflexivity.
    cbn [sbind unpack_BB fst snd]. destruct (r0 =? cs); cbn [negb]; [|reflexivity].
    destruct (r1 =? ERROR_NONE); reflexivity.
  Qed.

  (* the public configure services: what they hand to __send_configure *)
  Lemma src_configure_services_eq (st : M) n :
    (let '(a0, a1, a2) := src_configure_node_id n in configure_node_id peer st n = send_configure peer st a0 a1 a2) /\
    (let '(a0, a1, a2) := src_configure_bit_timing n in configure_bit_timing peer st n = send_configure peer st a0 a1 a2) /\
    (let '(a0, a1, a2) := src_store_configuration in store_configuration peer st = send_configure peer st a0 a1 a2).
  Proof. repeat split. Qed.

  (* __send_command: the queue is replaced (before the frame goes out) iff it is not empty, the frame goes out on
     LSS_TX_COBID, no answer is awaited unless message[0] is in ListMessageNeedResponse, an empty queue at
     the time-out is LssError, otherwise the head of the queue is returned *)
  Lemma src_send_command_eq (st : M) msg :
    let q_empty := match responses st with [] => true | _ => false end in
    let '(flushed, _, cob, _) := src_send_command q_empty (nth 0 msg 0) true false false 0 in
    let st0 := if flushed then mkM [] (pst st) (bus st) else st in
    let st1 := send_message peer st0 cob msg in
    let timed_out := match responses st1 with [] => true | _ => false end in
    let '(_, sent, _, code) := src_send_command q_empty (nth 0 msg 0) timed_out false false 0 in
    sent = true /\
    send_command peer st msg =
    if code =? 1 then (st1, Ok None)
    else if code =? 2 then (mkM (tl (responses st1)) (pst st1) (bus st1), Ok (hd_error (responses st1)))
    else (st1, Err E_LSS).
  Proof.
    unfold send_command, src_send_command.
    destruct (responses st) as [|r q]; cbn [negb];
      destruct (zmem (nth 0 msg 0) ListMessageNeedResponse); cbn [negb];
      destruct (responses (send_message peer _ LSS_TX_COBID msg)); split; reflexivity.
  Qed.
End AnyPeer.
