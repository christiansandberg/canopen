(* C17 - Periodic transmissions run exactly when and with what the API state says.
   Statements only: each theorem is [exact] of a lemma of Proofs/{Periodic_proofs.v, Src_eq_c17.v};
   the examples are concrete instances.
   Model: Model/Periodic.v (SyncProducer, PdoMap, NmtSlave heartbeat incl. object 0x1017 and NMT
   state changes, NmtMaster node guarding, PeriodicMessageTask with both branches of update,
   Network.disconnect); tables: Gen/NmtTables.v (COMMAND_TO_STATE), Gen/PeriodicTables.v (SYNC COB-ID),
   regenerated from /repo on every run.

   Vocabulary (Model/Periodic.v): [run (init c) ops] is the state after an ARBITRARY list of calls
   [ops] on a fresh network of configuration [c] (either bus flavour, any node ids, any PDO maps);
   [task_of s p] the handle producer p holds; [bus_alive b t] task t of the bus is transmitting;
   [carries bt pt] bus task bt repeats exactly the frame/period of PeriodicMessageTask pt;
   [frame_current s p pt] pt holds what the API state of p says as far as only calls can change it
   (SYNC / heartbeat / guarding: id, payload, remote flag; heartbeat: period and state byte);
   [attrs_current s p pt] pt agrees with the ASSIGNABLE attributes SyncProducer.period, PdoMap.cob_id,
   PdoMap.period (ops SyncSetPeriod / PdoSetCob / PdoSetPeriod model the assignments). *)
From Coq Require Import ZArith List Bool.
From CV Require Import Base.Val Base.Tys Gen.NmtTables Gen.PeriodicTables Model.Periodic Proofs.Periodic_proofs Gen.SrcC17 Proofs.Src_eq_c17.
Import ListNotations.
Open Scope Z_scope.

(* The set of live bus tasks equals the set of handles held by producers: every handle points to a
   live task repeating exactly the frame and period of its PeriodicMessageTask, which holds the
   producer's current frame (frame_current; the assignable attributes cob_id / period are covered by
   C17_restart_leaves_one and the two C17_attributes theorems); two producers
   never share a task (each producer holds at most one handle by construction); and every live task
   is held by some producer (nothing leaks, no earlier task keeps transmitting). *)
Theorem C17_no_leak_invariant : forall c ops,
  let s := run (init c) ops in
  ((forall p pt, task_of s p = Some pt -> carries (bus_get (st_bus s) (pt_tid pt)) pt) /\
   (forall p q pt qt, task_of s p = Some pt -> task_of s q = Some qt -> pt_tid pt = pt_tid qt -> p = q) /\
   (forall t, bus_alive (st_bus s) t = true -> exists p pt, task_of s p = Some pt /\ pt_tid pt = t)) /\
  (forall p pt, task_of s p = Some pt -> frame_current s p pt).
Proof. exact no_leak_invariant. Qed.

(* after stop() of any producer, in any reachable state: it holds no handle and every task still
   transmitting belongs to another producer *)
Theorem C17_stopped_means_none : forall c ops p,
  none_running (step_st (run (init c) ops) (stop_op p)) p.
Proof. exact stopped_means_none. Qed.

(* heartbeat time 0 => no heartbeat: after writing 0 to object 0x1017, after start_heartbeat(ms <= 0);
   and whenever a heartbeat task runs, the heartbeat time is positive and is its period *)
Theorem C17_heartbeat_zero_stops : forall c ops,
  let s := run (init c) ops in
  none_running (step_st s (ObjWrite HB_TIME_INDEX 0)) PHb /\
  (forall ms, ms <= 0 -> none_running (step_st s (HbStart ms)) PHb) /\
  (forall pt, task_of s PHb = Some pt ->
     0 < hb_ms (st_hb s) /\ bt_period (bus_get (st_bus s) (pt_tid pt)) = hb_ms (st_hb s)).
Proof. exact heartbeat_zero_stops. Qed.

(* a start / restart that returns normally, in any reachable state (running or not, with the period
   given or omitted, after any attribute assignments): the producer holds a task created by this very
   call, carrying the producer's CURRENT CAN id (PdoMap.cob_id as it is at the call), payload and period
   (the argument, or the period attribute when omitted), and the task it held before is dead.
   With C17_no_leak_invariant for the new state: exactly one task of this producer is transmitting. *)
Theorem C17_restart_leaves_one : forall c ops,
  let s := run (init c) ops in
  (forall p x, eff_period p (sy_period (st_sync s)) = Some x -> snd (step s (SyncStart p)) = None ->
     started s (step_st s (SyncStart p)) PSync SYNC_COB_ID [] x false) /\
  (forall i p x pd, nth_error (st_pdos s) i = Some pd -> eff_period p (pd_period pd) = Some x ->
     snd (step s (PdoStart i p)) = None ->
     started s (step_st s (PdoStart i p)) (PPdo i) (pd_cob pd) (pd_data pd) x false) /\
  (forall ms, 0 < ms -> snd (step s (HbStart ms)) = None ->
     started s (step_st s (HbStart ms)) PHb (HB_BASE + hb_node (st_hb s)) [hb_state (st_hb s)] ms false) /\
  (forall x, snd (step s (GuardStart x)) = None ->
     started s (step_st s (GuardStart x)) PGuard (HB_BASE + gd_node (st_guard s)) [] x true).
Proof. exact restart_leaves_one. Qed.

(* CAN id and period against the assignable attributes: a start that returns normally makes the task
   agree with them (in ANY state), and the agreement persists over every further call sequence that
   does not assign an attribute of that producer; in particular (ops1 = []) it holds throughout
   every history without attribute assignments. *)
Theorem C17_attributes_current_after_start : forall s,
  (forall p, snd (step s (SyncStart p)) = None ->
     forall pt, task_of (step_st s (SyncStart p)) PSync = Some pt -> attrs_current (step_st s (SyncStart p)) PSync pt) /\
  (forall i p, snd (step s (PdoStart i p)) = None ->
     forall pt, task_of (step_st s (PdoStart i p)) (PPdo i) = Some pt ->
                attrs_current (step_st s (PdoStart i p)) (PPdo i) pt).
Proof. exact start_sets_attrs. Qed.

Theorem C17_attributes_stay_current : forall c ops1 ops2 p,
  let s := run (init c) ops1 in
  (forall pt, task_of s p = Some pt -> attrs_current s p pt) ->
  (forall o, In o ops2 -> touches o p = false) ->
  forall pt, task_of (run s ops2) p = Some pt -> attrs_current (run s ops2) p pt.
Proof. exact attrs_stay_current. Qed.

(* Network.disconnect: no PDO map (of any node, rx or tx) holds a task afterwards, and whatever is
   still transmitting belongs to a producer that is not a PDO map *)
Theorem C17_disconnect_stops_pdo_tasks : forall c ops,
  let s' := step_st (run (init c) ops) Disconnect in
  (forall i, task_of s' (PPdo i) = None) /\
  (forall t, bus_alive (st_bus s') t = true ->
     exists q qt, (forall i, q <> PPdo i) /\ task_of s' q = Some qt /\ pt_tid qt = t).
Proof. exact disconnect_stops_pdo_tasks. Qed.

(* PDO payload: after start(), update() or a mapped-variable write (in-place write + update) that
   returns normally, the running task transmits the map's current data - on both bus flavours *)
Theorem C17_pdo_payload_current : forall c ops o i,
  commits o i ->
  let s := run (init c) ops in
  snd (step s o) = None ->
  forall pd pt, nth_error (st_pdos (step_st s o)) i = Some pd -> pd_task pd = Some pt ->
    bt_data (bus_get (st_bus (step_st s o)) (pt_tid pt)) = pd_data pd.
Proof. exact pdo_payload_current. Qed.

Definition nv_cfg (modify : bool) : config := mkCfg modify 2 3 250 [(515, [0; 0; 0]); (386, [1; 2])].
Definition nv_ops : list op :=
  [SyncStart (Some 100); SyncStart (Some 200); PdoStart 0 (Some 500); PdoPoke 0 0 7; PdoUpdate 0;
   PdoStart 1 (Some 10); NmtCmd 128; NmtCmd 1; ObjWrite 4119 1000; GuardStart 300; GuardStart 400;
   PdoSetVar 0 2 9; PdoStart 0 None].

(* all five producers hold a task after 13 calls with restarts and updates; on the bus without
   modify_data 12 tasks were created and exactly 5 are live, each with the current frame *)
Example C17_nv_invariant :
  let s := run (init (nv_cfg false)) nv_ops in
  (forall p, In p [PSync; PHb; PGuard; PPdo 0; PPdo 1] -> task_of s p <> None) /\
  length (st_bus s) = 12%nat /\
  live_view s = VL [VL [VZ 1; VZ 128; VB []; VZ 200; VBool false];
                    VL [VZ 4; VZ 386; VB [1; 2]; VZ 10; VBool false];
                    VL [VZ 7; VZ 1794; VB [5]; VZ 1000; VBool false];
                    VL [VZ 9; VZ 1795; VB []; VZ 400; VBool true];
                    VL [VZ 11; VZ 515; VB [7; 0; 9]; VZ 500; VBool false]].
Proof.
  vm_compute. split; [|split; reflexivity].
  intros p [<-|[<-|[<-|[<-|[<-|[]]]]]]; discriminate.
Qed.

Example C17_nv_restart :
  let s := run (init (nv_cfg true)) nv_ops in
  task_of s PSync <> None /\ snd (step s (SyncStart (Some 50))) = None /\ snd (step s (SyncStart None)) = None /\
  (exists pd, nth_error (st_pdos s) 0 = Some pd /\ pd_task pd <> None /\ snd (step s (PdoStart 0 (Some 20))) = None) /\
  task_of s PHb <> None /\ snd (step s (HbStart 5)) = None /\
  task_of s PGuard <> None /\ snd (step s (GuardStart 1)) = None.
Proof. vm_compute. repeat split; try discriminate. eexists. repeat split; discriminate. Qed.

Example C17_nv_payload :
  let s := run (init (nv_cfg false)) (firstn 4 nv_ops) in
  commits (PdoUpdate 0) 0 /\ snd (step s (PdoUpdate 0)) = None /\
  exists pd pt, nth_error (st_pdos (step_st s (PdoUpdate 0))) 0 = Some pd /\ pd_task pd = Some pt /\ pd_data pd = [7; 0; 0] /\
                bt_data (bus_get (st_bus s) 2) = [0; 0; 0].
Proof. split; [right; left; reflexivity|]. vm_compute. split; [reflexivity|]. do 2 eexists. repeat split. Qed.

Example C17_nv_disconnect :
  let s := run (init (nv_cfg true)) nv_ops in
  task_of s (PPdo 0) <> None /\ task_of s (PPdo 1) <> None /\
  live_view (step_st s Disconnect) = VL [VL [VZ 1; VZ 128; VB []; VZ 200; VBool false];
                                         VL [VZ 5; VZ 1794; VB [5]; VZ 1000; VBool false];
                                         VL [VZ 7; VZ 1795; VB []; VZ 400; VBool true]].
Proof. vm_compute. repeat split; discriminate. Qed.

(* COB-ID and period attribute assigned while running, then start() without a period: the surviving
   task is a new one on the new COB-ID with the new period (both flavours give the same live set here) *)
Example C17_nv_attributes :
  let ops := [PdoStart 0 (Some 100); PdoSetCob 0 450; PdoSetPeriod 0 (Some 200); PdoStart 0 None] in
  let s3 := run (init (nv_cfg false)) (firstn 3 ops) in
  snd (step s3 (PdoStart 0 None)) = None /\ touches (PdoSetCob 0 450) (PPdo 0) = true /\
  live_view s3 = VL [VL [VZ 0; VZ 515; VB [0; 0; 0]; VZ 100; VBool false]] /\
  live_view (run (init (nv_cfg false)) ops) = VL [VL [VZ 1; VZ 450; VB [0; 0; 0]; VZ 200; VBool false]] /\
  live_view (run (init (nv_cfg true)) ops) = VL [VL [VZ 1; VZ 450; VB [0; 0; 0]; VZ 200; VBool false]].
Proof. vm_compute. repeat split. Qed.

(* Source tie (DESIGN.md 4.3).
   PeriodicMessageTask.update, SyncProducer.start/stop and PdoMap.start/stop/update as translated from the
   CURRENT source text (Gen/SrcC17.v, regenerated on every run) determine the model functions the theorems
   above are about: which of stop / modify_data / _start / send_periodic is called, the position of the
   period check relative to stop(), the period attribute and the handle afterwards. *)
Theorem C17_src_update : forall modify b pt d,
  pt_update modify b pt d =
  let '(stored, act) := src_pt_update modify (list_Z_eqb d (pt_data pt)) false 0 in
  let d' := if stored then d else pt_data pt in
  let pt1 tid := mkP tid (pt_can pt) d' (pt_period pt) (pt_remote pt) in
  if act =? 1 then (bus_modify b (pt_tid pt) d', pt1 (pt_tid pt))
  else if act =? 3 then
    (bus_stop b (pt_tid pt) ++ [mkB (pt_can pt) d' (pt_period pt) (pt_remote pt) true], pt1 (length b))
  else if act =? 0 then (b, pt1 (pt_tid pt))
  else (bus_stop b (pt_tid pt), pt1 (pt_tid pt)).
Proof. exact src_pt_update_eq. Qed.

Theorem C17_src_sync_start : forall s p,
  let y := st_sync s in
  let '(stopped, ph, pv, out) :=
    src_sync_start (osome p) (oget p) (osome (sy_period y)) (oget (sy_period y)) false in
  let per := mkopt ph pv in
  let b1 := if stopped then stop_opt (st_bus s) (sy_task y) else st_bus s in
  sync_start s p =
  if out =? 0 then (set_sync s b1 (mkSy per (if stopped then None else sy_task y)), raised E_VALUE)
  else match send_periodic (st_conn s) b1 SYNC_COB_ID [] pv false with
       | Some (b2, pt) => (set_sync s b2 (mkSy per (Some pt)), ok)
       | None => (set_sync s b1 (mkSy per None), raised E_ATTR)
       end.
Proof. exact src_sync_start_eq. Qed.

Theorem C17_src_pdo_start : forall conn b pd p,
  let '(stopped, ph, pv, out) :=
    src_pdo_start (osome p) (oget p) (osome (pd_period pd)) (oget (pd_period pd)) false in
  let per := mkopt ph pv in
  let b1 := if stopped then stop_opt b (pd_task pd) else b in
  let pd1 := mkPd (pd_cob pd) (pd_nvars pd) (pd_data pd) per (if stopped then None else pd_task pd) in
  pdo_start1 conn b pd p =
  if out =? 0 then (b1, pd1, raised E_VALUE)
  else match send_periodic conn b1 (pd_cob pd) (pd_data pd) pv false with
       | Some (b2, pt) => (b2, mkPd (pd_cob pd) (pd_nvars pd) (pd_data pd) per (Some pt), ok)
       | None => (b1, pd1, raised E_ATTR)
       end.
Proof. exact src_pdo_start_eq. Qed.

Theorem C17_src_pdo_update : forall modify b pd,
  pdo_update1 modify b pd =
  if src_pdo_update_calls (osome (pd_task pd)) false then
    match pd_task pd with
    | Some pt => let '(b1, pt1) := pt_update modify b pt (pd_data pd) in
                 (b1, mkPd (pd_cob pd) (pd_nvars pd) (pd_data pd) (pd_period pd) (Some pt1))
    | None => (b, pd)
    end
  else (b, pd).
Proof. exact src_pdo_update_eq. Qed.

Theorem C17_src_pdo_stop : forall b pd,
  pdo_stop1 b pd =
  let '(stopped, holds) := src_pdo_stop (osome (pd_task pd)) false true in
  (if stopped then stop_opt b (pd_task pd) else b,
   mkPd (pd_cob pd) (pd_nvars pd) (pd_data pd) (pd_period pd) (if holds then pd_task pd else None)).
Proof. exact src_pdo_stop_eq. Qed.

Theorem C17_src_sync_stop : forall s,
  sync_stop s =
  let y := st_sync s in
  let '(stopped, holds) := src_sync_stop (osome (sy_task y)) false true in
  set_sync s (if stopped then stop_opt (st_bus s) (sy_task y) else st_bus s)
           (mkSy (sy_period y) (if holds then sy_task y else None)).
Proof. exact src_sync_stop_eq. Qed.

Print Assumptions C17_no_leak_invariant.
Print Assumptions C17_stopped_means_none.
Print Assumptions C17_heartbeat_zero_stops.
Print Assumptions C17_restart_leaves_one.
Print Assumptions C17_attributes_current_after_start.
Print Assumptions C17_attributes_stay_current.
Print Assumptions C17_disconnect_stops_pdo_tasks.
Print Assumptions C17_pdo_payload_current.
Print Assumptions C17_src_update.
Print Assumptions C17_src_sync_start.
Print Assumptions C17_src_pdo_start.
Print Assumptions C17_src_pdo_update.
Print Assumptions C17_src_pdo_stop.
Print Assumptions C17_src_sync_stop.
