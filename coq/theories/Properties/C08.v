(* C08 - Importing an EDS/DCF yields exactly the described object dictionary.
   Statements only: each theorem is [exact] of a lemma of Proofs/{Eds_proofs.v, Src_eq_eds.v};
   the examples are concrete instances.
   Model: Model/Eds.v (import_eds, build_variable, copy_variable, _convert_variable, _signed_int_from_hex,
   ObjectDictionary / ODRecord / ODArray look-ups), reference writer: Model/RefEds.v, tables: Gen/EdsTables.v
   and Gen/Tables.v regenerated from /repo on every run.
   PARTIAL: proved from the token level up (a document is a list of sections of key/value strings); the text
   layer (configparser, re, float(), files) is modelled, not verified, and tied only by the correspondence. *)
From Coq Require Import ZArith List Bool Lia.
From Coq Require String.
Import String.StringSyntax.
From CV Require Import Base.Val Base.Bytes Base.Tys Gen.Tables Gen.EdsTables Gen.SrcC08 Model.Eds Model.RefEds Proofs.Eds_proofs Proofs.Src_eq_eds.
Import ListNotations.
Open Scope Z_scope.

(* value level: every spelling of every integer *)
(* int(text, 0) reads decimal, 0x/0X hexadecimal (either case, any zero padding) and signed spellings of ALL integers *)
Theorem C08_int0_spell : forall sp v, int0 (spell sp v) = Some v.
Proof. exact int0_spell. Qed.

(* the code knows the CiA 301 width of each of the eight signed integer types (regenerated from _calc_bit_length) *)
Theorem C08_signed_widths : forallb signed_table_row SIGNED_TYPES = true /\ length SIGNED_TYPES = 8%nat.
Proof. exact signed_table_ok. Qed.

(* signed_limit_roundtrip: a limit of a signed type, written plainly (decimal / hex / with a sign) or as the
   two's-complement bit pattern of the type's width, is imported as the (possibly negative) number it means *)
Theorem C08_signed_limit_roundtrip : forall dt ls v, zmem dt SIGNED_TYPES = true ->
  - 2 ^ (signed_width dt - 1) <= v < 2 ^ (signed_width dt - 1) ->
  parse_limit dt (spell_limit (signed_width dt) ls v) = Some v.
Proof. exact signed_limit_written. Qed.

Theorem C08_other_limit : forall dt sp v, zmem dt SIGNED_TYPES = false -> parse_limit dt (spell sp v) = Some v.
Proof. exact other_limit_written. Qed.

(* default / parameter values: numbers in every spelling, $NODEID+x / x+$NODEID (with or without blanks) resolved
   against the node id in force, text, byte strings in either case, REAL texts *)
Theorem C08_convert_written : forall nid dt x, dvalue_ok nid dt x ->
  convert_variable nid dt (dvalue_text x) = dvalue_sem nid x.
Proof. exact convert_written. Qed.

(* object level: a written variable section is imported as the described variable *)
Theorem C08_import_written_var : forall d nid index sub name ot (v : vdesc), wf_vdesc nid v ->
  build_variable d (kvs_of ((k_PName, Some name) :: (s "ObjectType", ot) :: var_keys v)) nid index sub
  = Ok (described_var nid index sub name v).
Proof. exact import_written_var. Qed.

(* Whole documents.
   FULL STATEMENT (C08 import_of_written): for every well-formed description d and every spelling choice,
     import_ini (write d) nid = Ok (described d nid).
   PROVED (partial): for descriptions without a [DeviceInfo] section and whose written document has no duplicate
   section or key (doc_ok, the model's form of configparser's Duplicate*Error).  Covered: VAR / DOMAIN / ARRAY /
   RECORD / CompactSubObj objects (name lists sorted, possibly sparse), all attributes of [described_var],
   'sub'/'Sub' and upper/lower-case section names, missing ObjectType, comments, node id explicit / from file /
   absent, bit rate, the extra sections (FileInfo, DummyUsage), and [DeviceInfo] / [DeviceComissioning] / [Comments]
   written before OR after the object sections (dd_tail).  Left to the correspondence: DeviceInfo
   (see C08_devinfo_table), CANFestival data type > 0x1B indirection, DummyUsage entries equal to 1. *)
Theorem C08_import_of_written_partial : forall d nid,
  dd_devinfo d = None -> Forall (odesc_ok (node_id_in_force d nid)) (dd_objects d) -> doc_ok (write d) = true ->
  import_ini (write d) nid = Ok (described d nid).
Proof. exact import_of_written_partial. Qed.

(* the DeviceInfo table of the code (regenerated) is the CiA 306 table of the reference (kinds: text / number / flag;
   in particular Granularity is a number) and the baud-rate list is the standard one *)
Theorem C08_devinfo_table : DEVINFO_IMPORT = DEVINFO_ROWS /\ BAUD_RATES = STD_RATES.
Proof. exact devinfo_table_ok. Qed.

(* compact arrays are expanded: a sub-index 1..255 without an entry of its own is made from element 1 and has its
   data type, access type, PDO mappability, default, limits, storage location, factor, unit, description *)
Theorem C08_compact_expanded : forall c t sub, c_kind c = KArr -> zassoc 1 (c_subs c) = Some t -> 0 < sub < 256 ->
  zassoc sub (c_subs c) = None ->
  exists v, cont_get_int c sub = Ok v /\ v_index v = c_index c /\ v_sub v = sub /\
    v_dt v = v_dt t /\ v_access v = v_access t /\ v_pdo v = v_pdo t /\ v_default v = v_default t /\
    v_min v = v_min t /\ v_max v = v_max t /\ v_storage v = v_storage t /\ v_factor v = v_factor t /\
    v_unit v = v_unit t /\ v_descr v = v_descr t.
Proof. exact compact_expanded. Qed.

(* lookup_consistent: in a dictionary whose objects have distinct indices and distinct names (dots allowed, e.g.
   'Max. current'), look-up by index and by name reach the same object (same identity p), and for a container with
   distinct member sub-indices and names, [sub] and [name] reach the same member; 'Parent.Child' does too when the
   top-level names are dot-free (the code splits a qualified name at its FIRST dot) *)
Theorem C08_lookup_consistent : forall base objs, blank base ->
  NoDup (map obj_index objs) -> NoDup (map obj_name objs) ->
  forall p o, nth_error objs p = Some o ->
  od_get_int (built objs base) (obj_index o) = Ok (p, o) /\
  od_get (built objs base) (KI (obj_index o)) = Ok (LObj p o) /\
  (obj_truthy o = true -> od_get (built objs base) (KS (obj_name o)) = Ok (LObj p o)) /\
  (forall c0 vars v, o = OCont (filled c0 vars) -> c_subs c0 = [] -> c_names c0 = [] ->
     NoDup (map v_sub vars) -> NoDup (map v_name vars) -> In v vars ->
     obj_get o (KI (v_sub v)) = Ok v /\ obj_get o (KS (v_name v)) = Ok v /\
     (Forall (fun o => no_dot (obj_name o)) objs ->
      od_get (built objs base) (KS (obj_name o ++ 46 :: v_name v)) = Ok (LVar p v))).
Proof. exact lookup_consistent. Qed.

Example C08_nv_document :
  dd_devinfo ex_doc = None /\ Forall (odesc_ok (node_id_in_force ex_doc None)) (dd_objects ex_doc) /\
  doc_ok (write ex_doc) = true /\ length (write ex_doc) = 10%nat /\
  node_id_in_force ex_doc None = Some 5.
Proof.
  split; [reflexivity|]. split; [|vm_compute; repeat split; reflexivity].
  repeat apply Forall_cons; [| | |apply Forall_nil]; cbn [odesc_ok].
  - split; [split; [discriminate|reflexivity]|apply ex_var_wf].
  - split; [split; [discriminate|reflexivity]|]. repeat apply Forall_cons; [| |apply Forall_nil].
    + split; [apply ex_n0_wf|split; [discriminate|reflexivity]].
    + split; [apply ex_cob_wf|split; [discriminate|reflexivity]].
  - split; [split; [discriminate|reflexivity]|]. split; [apply ex_var_wf|].
    split; [split; [discriminate|reflexivity]|]. split; [split; [discriminate|reflexivity]|exact I].
Qed.

Example C08_nv_values :
  parse_limit 16 (s "0x800000") = Some (-8388608) /\ parse_limit 16 (s "0x7FFFFF") = Some 8388607 /\
  convert_variable (Some 5) 7 (s "0x180 + $NODEID") = Some (PVInt 389) /\ int0 (s "012") = None /\
  int0 (s "-0X1f") = Some (-31).
Proof. vm_compute. repeat split; reflexivity. Qed.

(* Tie to the source text: eds._signed_int_from_hex and eds._calc_bit_length as translated from the CURRENT
   source by tools/py2coq.py (Gen/SrcC08.v, regenerated on every run) are the model's conversion and the
   regenerated CALC_BIT_LENGTH table (evaluated from the running code) on every data type 0..255. *)
Theorem C08_source_signed_int_is_model : forall t bits n, 1 <= bits -> int0 t = Some n ->
  signed_int_from_hex t bits = Some (src_signed_int_from_hex n bits).
Proof. exact src_signed_int_from_hex_eq. Qed.

Theorem C08_source_calc_bit_length_is_table : forall dt, 0 <= dt < 256 ->
  src_calc_bit_length dt = zassoc dt CALC_BIT_LENGTH.
Proof. exact src_calc_bit_length_eq. Qed.

Print Assumptions C08_int0_spell.
Print Assumptions C08_signed_widths.
Print Assumptions C08_signed_limit_roundtrip.
Print Assumptions C08_other_limit.
Print Assumptions C08_convert_written.
Print Assumptions C08_import_written_var.
Print Assumptions C08_import_of_written_partial.
Print Assumptions C08_devinfo_table.
Print Assumptions C08_compact_expanded.
Print Assumptions C08_lookup_consistent.
Print Assumptions C08_source_signed_int_is_model.
Print Assumptions C08_source_calc_bit_length_is_table.
