(* C05: PdoVariable.get_data / set_data and the layout of a PdoMap (Model/Pdo.v).
   A frame is read as one little-endian number, so that both paths of get_data / set_data, the byte slices and the
   shift-and-mask, are get_field / set_field on that number (get_data_spec, set_data_spec); reading after a
   write and the independence of disjoint fields are then get_set / get_set_other of Base/Bits.v. *)
From Coq Require Import ZArith List Bool Lia.
From CV Require Import Base.Val Base.Bytes Base.Bits Base.Tys Gen.Tables Model.Codec Model.Pdo Proofs.Codec_proofs.
Import ListNotations.
Open Scope Z_scope.

Lemma bytes_ok_firstn n l : bytes_ok l -> bytes_ok (firstn n l).
Proof. intros H. now apply Forall_firstn_skipn. Qed.

Lemma bytes_ok_skipn n l : bytes_ok l -> bytes_ok (skipn n l).
Proof. intros H. now apply Forall_firstn_skipn. Qed.

Lemma byte_high_bits b k : 0 <= b < 256 -> 8 <= k -> Z.testbit b k = false.
Proof. apply (testbit_small b 8). Qed.

Lemma nth_byte_ok l j : bytes_ok l -> 0 <= nth j l 0 < 256.
Proof.
  intros H. destruct (Nat.lt_ge_cases j (length l)) as [L|L].
  - unfold bytes_ok in H. rewrite Forall_forall in H. apply (H (nth j l 0)). now apply nth_In.
  - rewrite nth_overflow by lia. lia.
Qed.

Lemma zlen_slice {A} (l : list A) a n : 0 <= a -> 0 <= n -> a + n <= zlen l -> zlen (slice l a (a + n)) = n.
Proof. intros Ha Hn Hin. unfold slice, zlen in *. rewrite firstn_length, skipn_length. lia. Qed.

Lemma le_decode_slice l a n : bytes_ok l -> 0 <= a -> 0 <= n -> a + n <= zlen l ->
  le_decode (slice l a (a + n)) = get_field (le_decode l) (8 * a) (8 * n).
Proof.
  intros Hl Ha Hn Hin. apply Z.bits_inj'. intros i Hi. unfold slice, zlen in *. replace (a + n - a) with n by lia.
  rewrite le_decode_firstn_testbit, get_field_spec, Z2Nat.id
    by (try apply bytes_ok_skipn; try rewrite skipn_length; auto; lia).
  destruct (i <? 8 * n); [|reflexivity]. rewrite le_decode_skipn_testbit by (auto; lia). f_equal. lia.
Qed.

Definition splice (l : list Z) (a : Z) (d : list Z) : list Z :=
  firstn (Z.to_nat a) l ++ d ++ skipn (Z.to_nat (a + zlen d)) l.

Lemma splice_length l a d : 0 <= a -> a + zlen d <= zlen l -> zlen (splice l a d) = zlen l.
Proof.
  intros Ha H. unfold splice, zlen in *. rewrite !app_length, firstn_length, skipn_length. lia.
Qed.

Lemma splice_ok l a d : bytes_ok l -> bytes_ok d -> bytes_ok (splice l a d).
Proof.
  intros Hl Hd. unfold splice. apply Forall_app. split; [now apply bytes_ok_firstn|].
  apply Forall_app. split; [assumption|now apply bytes_ok_skipn].
Qed.

Lemma le_decode_splice l a d : bytes_ok l -> bytes_ok d -> 0 <= a -> a + zlen d <= zlen l ->
  le_decode (splice l a d) = set_field (le_decode l) (8 * a) (8 * zlen d) (le_decode d).
Proof.
  intros Hl Hd Ha H. apply Z.bits_inj'. intros i Hi. pose proof (zlen_nonneg d) as Hzd. unfold splice.
  rewrite set_field_spec, le_decode_app_testbit by (auto using bytes_ok_firstn; lia).
  unfold zlen in *. rewrite firstn_length_le, Z2Nat.id by lia.
  destruct (i <? 8 * a) eqn:E1.
  - replace (8 * a <=? i) with false by lia.
    rewrite le_decode_firstn_testbit, Z2Nat.id, E1 by (auto; lia). reflexivity.
  - replace (8 * a <=? i) with true by lia. cbn [andb]. rewrite le_decode_app_testbit by (auto; lia). unfold zlen.
    replace (i <? 8 * a + 8 * Z.of_nat (length d)) with (i - 8 * a <? 8 * Z.of_nat (length d)) by lia.
    destruct (i - 8 * a <? 8 * Z.of_nat (length d)) eqn:E2; [reflexivity|].
    rewrite le_decode_skipn_testbit by (auto; lia). f_equal. lia.
Qed.

(* the bytes handed to the decoder: the field, sign-extended from its mapped length for a signed
   object, in the object's own size; the same on the bit path and on the byte-aligned path *)
Lemma get_data_spec frame dt off len :
  bytes_ok frame -> 0 <= off -> off + len <= 8 * zlen frame ->
  0 < len <= 8 * od_size dt -> (len mod 8 = 0 -> len = 8 * od_size dt) ->
  let d := get_field (le_decode frame) off len in
  pdo_get_data frame dt off len = Ok (le_encode (Z.to_nat (od_size dt)) (if is_signed dt then sext len d else d)).
Proof.
  intros Hf Ho Hfit Hl Hal d. unfold pdo_get_data. fold d. set (s := is_signed dt). set (n := od_size dt) in *.
  pose proof (get_field_range (le_decode frame) off len ltac:(lia)) as Hd. fold d in Hd.
  destruct (negb (off mod 8 =? 0) || negb (len mod 8 =? 0)) eqn:Una.
  - replace (if s && Z.testbit d (len - 1) then d - 2 ^ len else d) with (if s then sext len d else d)
      by (destruct s; [apply sext_testbit; lia|reflexivity]).
    unfold to_bytes. rewrite (in_range_mono s len (8 * n)); [reflexivity|lia|]. apply in_range_decoded; lia.
  - assert (Hoff : off = 8 * (off / 8) /\ len = 8 * n) by (Z.div_mod_to_equations; lia).
    destruct Hoff as [Hoff ->]. clear Una Hal.
    f_equal. symmetry. apply le_encode_unique.
    + apply bytes_ok_firstn, bytes_ok_skipn, Hf.
    + apply zlen_slice; lia.
    + rewrite le_decode_slice by (auto; lia). rewrite <- Hoff. apply in_range_decoded; lia.
Qed.

Lemma set_data_spec frame off len data :
  bytes_ok frame -> bytes_ok data -> 0 <= off -> 0 < len -> off + len <= 8 * zlen frame ->
  (len mod 8 = 0 -> len = 8 * zlen data) ->
  exists frame', pdo_set_data frame off len data = Ok frame' /\ zlen frame' = zlen frame /\ bytes_ok frame' /\
                 le_decode frame' = set_field (le_decode frame) off len (le_decode data).
Proof.
  intros Hf Hd Ho Hl Hfit Hal. unfold pdo_set_data.
  destruct (negb (off mod 8 =? 0) || negb (len mod 8 =? 0)) eqn:Una.
  - pose proof (set_field_bound _ off len (le_decode data) _ (le_decode_range frame Hf) Ho ltac:(lia) Hfit) as Hb.
    unfold to_bytes, in_range. replace (_ && _) with true by lia.
    pose proof (zlen_nonneg frame). eexists. split; [reflexivity|].
    rewrite zlen_le_encode, le_decode_encode, !Z2Nat.id, Z.mod_small by lia. auto using le_encode_ok.
  - assert (off = 8 * (off / 8) /\ len = 8 * zlen data) as [Hoff ->] by (Z.div_mod_to_equations; lia).
    fold (splice frame (off / 8) data). eexists. split; [reflexivity|].
    split; [apply splice_length; lia|]. split; [now apply splice_ok|].
    rewrite le_decode_splice by (auto; lia). f_equal; lia.
Qed.

(* the kinds of object the property quantifies over *)
Inductive ftype := FInt (s : bool) (w : Z) | FBool | FReal (w : Z).

(* entry (dt, len) is an object of kind ft mapped with its own length, or (BOOLEAN) as one bit,
   or (8-bit integer types) with a sub-byte length. A shorter length is covered below 8 bits only: a
   byte-aligned field whose length is a multiple of 8 takes the byte path of get_data, which moves
   od_size dt whole bytes whatever the length says. *)
Definition entry_is (dt len : Z) (ft : ftype) : Prop :=
  match ft with
  | FInt s w => exists p, zassoc dt STRUCT_TYPES = Some p /\ int_packer p = Some (s, w) /\
                          (len = w \/ (w = 8 /\ 1 <= len <= 8))
  | FBool => zassoc dt STRUCT_TYPES = Some PBool /\ len = 1
  | FReal w => zassoc dt STRUCT_TYPES = Some (PReal w) /\ len = w
  end.

Definition field_value (ft : ftype) (len f : Z) : pyval :=
  match ft with
  | FInt s _ => PInt (if s then sext len f else f)
  | FBool => PInt f
  | FReal _ => PFloat f
  end.

Definition write_value (ft : ftype) (v : Z) : pyval :=
  match ft with FReal _ => PFloat v | _ => PInt v end.

Definition fits (ft : ftype) (v : Z) : Prop :=
  match ft with
  | FInt s w => in_range s w v = true
  | FBool => v = 0 \/ v = 1
  | FReal w => 0 <= v < 2 ^ w
  end.

Lemma od_size_of t p : zassoc t STRUCT_TYPES = Some p -> od_size t = packer_bits p / 8 * 8 / 8.
Proof. intros Ht. unfold od_size, len_bits. now rewrite Ht. Qed.

(* all that get_data / set_data and the codec need to know of a mapped object: how its length stands to
   the object's size, how a value is encoded and how a len-bit pattern is decoded *)
Lemma entry_codec dt len ft : entry_is dt len ft ->
  let n := od_size dt in
  0 < len <= 8 * n /\ (len mod 8 = 0 -> len = 8 * n) /\
  (forall v, fits ft v -> encode_raw (Some dt) (write_value ft v) = Ok (le_encode (Z.to_nat n) v)) /\
  (forall d, 0 <= d < 2 ^ len ->
     decode_raw (Some dt) (le_encode (Z.to_nat n) (if is_signed dt then sext len d else d)) = Ok (field_value ft len d)).
Proof.
  unfold is_signed. destruct ft as [s w| |w]; cbn [entry_is fits write_value field_value].
  - intros (p & Ht & Hp & Hown).
    destruct (packer_wf_of dt p s w Ht Hp) as (_ & Hw). pose proof (width_div w Hw) as (Hd8 & He8 & H64).
    rewrite (signed_of dt p Ht), (od_size_of dt p Ht), (int_packer_bits p s w Hp), Hp, Z.div_mul by lia.
    cbv zeta. repeat split; try (Z.div_mod_to_equations; lia).
    + intros v Hv. now apply (encode_exact dt p s w).
    + intros d Hd. apply (decode_encode dt p s w _ Ht Hp), (in_range_mono s len w); try lia.
      apply in_range_decoded; [lia|exact Hd].
  - intros (Ht & ->). rewrite (signed_of _ _ Ht), (od_size_of _ _ Ht).
    repeat split; try (cbn; lia).
    + intros v [-> | ->]; now rewrite (encode_raw_struct _ _ _ Ht) by discriminate.
    + intros d Hd. rewrite (decode_raw_struct _ _ _ Ht).
      assert (Hc : d = 0 \/ d = 1) by lia. destruct Hc as [-> | ->]; reflexivity.
  - intros (Ht & ->). pose proof (real_width dt w Ht) as Hw.
    rewrite (signed_of _ _ Ht), (od_size_of _ _ Ht). cbn [int_packer packer_bits]. rewrite Z.div_mul by lia.
    repeat split; try (Z.div_mod_to_equations; lia); intros v Hv; now apply (real_codec dt w v Ht).
Qed.

Theorem pdo_read_spec frame dt off len ft :
  bytes_ok frame -> entry_is dt len ft -> 0 <= off -> off + len <= 8 * zlen frame ->
  pdo_read frame dt off len = Ok (field_value ft len (get_field (le_decode frame) off len)).
Proof.
  intros Hf He Ho Hfit. destruct (entry_codec dt len ft He) as (Hl & Hal & _ & Hdec).
  unfold pdo_read. rewrite get_data_spec by assumption. apply Hdec, get_field_range; lia.
Qed.

Theorem pdo_write_spec frame dt off len ft v :
  bytes_ok frame -> entry_is dt len ft -> fits ft v -> 0 <= off -> off + len <= 8 * zlen frame ->
  exists frame', pdo_write frame dt off len (write_value ft v) = Ok frame' /\
                 zlen frame' = zlen frame /\ bytes_ok frame' /\
                 le_decode frame' = set_field (le_decode frame) off len v.
Proof.
  intros Hf He Hv Ho Hfit. destruct (entry_codec dt len ft He) as (Hl & Hal & Henc & _).
  unfold pdo_write. rewrite (Henc v Hv). cbn [rbind].
  destruct (set_data_spec frame off len (le_encode (Z.to_nat (od_size dt)) v)) as (f' & Hset & Hlen & Hok & Hd);
    auto using le_encode_ok; try lia.
  { rewrite zlen_le_encode. lia. }
  exists f'. rewrite Hd, le_decode_encode. repeat split; auto. apply set_field_mod. lia.
Qed.

(* out-of-range values are refused: the frame cannot change because nothing is returned *)
Theorem pdo_write_rejects frame dt off len s w p v :
  zassoc dt STRUCT_TYPES = Some p -> int_packer p = Some (s, w) -> in_range s w v = false ->
  pdo_write frame dt off len (PInt v) = Err E_VALUE.
Proof. intros Ht Hp Hr. unfold pdo_write. now rewrite (encode_rejects dt p s w v Ht Hp Hr). Qed.

Lemma entry_len_pos dt len ft : entry_is dt len ft -> 0 < len.
Proof. intros He. apply (entry_codec dt len ft He). Qed.

Theorem pdo_write_bits frame dt off len ft v :
  bytes_ok frame -> entry_is dt len ft -> fits ft v -> 0 <= off -> off + len <= 8 * zlen frame ->
  exists frame', pdo_write frame dt off len (write_value ft v) = Ok frame' /\
    length frame' = length frame /\ bytes_ok frame' /\
    forall i, 0 <= i ->
      Z.testbit (nth (Z.to_nat (i / 8)) frame' 0) (i mod 8) =
      if (off <=? i) && (i <? off + len) then Z.testbit v (i - off)
      else Z.testbit (nth (Z.to_nat (i / 8)) frame 0) (i mod 8).
Proof.
  intros Hf He Hv Ho Hfit. pose proof (entry_len_pos dt len ft He) as Hl0.
  destruct (pdo_write_spec frame dt off len ft v Hf He Hv Ho Hfit) as (f' & Hw & Hl & Hok & Hd).
  exists f'. split; [assumption|]. split; [unfold zlen in Hl; lia|]. split; [assumption|].
  intros i Hi. rewrite <- !le_decode_testbit, Hd by assumption. apply set_field_spec; lia.
Qed.

(* the value read back is the value's low [len] bits, reinterpreted by the type *)
Theorem pdo_read_after_write frame dt off len ft v :
  bytes_ok frame -> entry_is dt len ft -> fits ft v -> 0 <= off -> off + len <= 8 * zlen frame ->
  exists frame', pdo_write frame dt off len (write_value ft v) = Ok frame' /\
    pdo_read frame' dt off len = Ok (field_value ft len (v mod 2 ^ len)).
Proof.
  intros Hf He Hv Ho Hfit. pose proof (entry_len_pos dt len ft He) as Hl0.
  destruct (pdo_write_spec frame dt off len ft v Hf He Hv Ho Hfit) as (f' & Hw & Hl & Hok & Hd).
  exists f'. split; [assumption|].
  rewrite (pdo_read_spec f' dt off len ft Hok He Ho), Hd, get_set, Z.land_ones by lia. reflexivity.
Qed.

(* in-range values of a full-length field come back unchanged *)
Lemma full_field_value ft dt w v : entry_is dt w ft -> fits ft v ->
  match ft with FInt _ w' => w = w' | _ => True end ->
  field_value ft w (v mod 2 ^ w) = write_value ft v.
Proof.
  intros He Hv Hfull. pose proof (entry_len_pos dt w ft He) as Hl0.
  destruct ft as [s w'| |w']; cbn in *.
  - subst w'. f_equal. now apply decoded_mod.
  - destruct He as (_ & ->). destruct Hv as [-> | ->]; reflexivity.
  - destruct He as (_ & ->). f_equal. apply Z.mod_small; lia.
Qed.

(* a write never disturbs a disjoint variable *)
Theorem pdo_write_preserves_other frame dt off len ft v dt2 off2 len2 ft2 :
  bytes_ok frame -> entry_is dt len ft -> fits ft v -> 0 <= off -> off + len <= 8 * zlen frame ->
  entry_is dt2 len2 ft2 -> 0 <= off2 -> off2 + len2 <= 8 * zlen frame ->
  off2 + len2 <= off \/ off + len <= off2 ->
  exists frame', pdo_write frame dt off len (write_value ft v) = Ok frame' /\
    pdo_read frame' dt2 off2 len2 = pdo_read frame dt2 off2 len2.
Proof.
  intros Hf He Hv Ho Hfit He2 Ho2 Hfit2 Hdis.
  pose proof (entry_len_pos dt len ft He) as Hl0. pose proof (entry_len_pos dt2 len2 ft2 He2) as Hl2.
  destruct (pdo_write_spec frame dt off len ft v Hf He Hv Ho Hfit) as (f' & Hw & Hl & Hok & Hd).
  exists f'. split; [assumption|].
  rewrite !(pdo_read_spec _ dt2 off2 len2 ft2) by (assumption || lia).
  rewrite Hd, get_set_other by lia. reflexivity.
Qed.

Lemma fold_shift l x : fold_left (fun a e => a + e_len e) l x = x + fold_left (fun a e => a + e_len e) l 0.
Proof.
  revert x. induction l as [|y l IH]; intros x; cbn [fold_left]; [lia|].
  rewrite (IH (x + e_len y)), (IH (0 + e_len y)). lia.
Qed.

Lemma offsets_from_nth start es k off : nth_error (offsets_from start es) k = Some off ->
  off = start + total_bits (firstn k es).
Proof.
  revert start k. induction es as [|e r IH]; intros start [|k] H; cbn in H; try discriminate.
  - injection H as <-. cbn. unfold total_bits. cbn. lia.
  - apply IH in H. subst off. unfold total_bits. cbn [firstn fold_left].
    rewrite (fold_shift _ (0 + e_len e)). lia.
Qed.

Lemma total_bits_app a b : total_bits (a ++ b) = total_bits a + total_bits b.
Proof. unfold total_bits. rewrite fold_left_app. apply fold_shift. Qed.

Lemma total_bits_nonneg es : Forall (fun e => 0 <= e_len e) es -> 0 <= total_bits es.
Proof.
  induction 1 as [|e r He Hr IH]; [cbn; lia|].
  change (e :: r) with ([e] ++ r). rewrite total_bits_app. unfold total_bits at 1. cbn [fold_left]. lia.
Qed.

Lemma prefix_step es k e : nth_error es k = Some e ->
  total_bits (firstn (S k) es) = total_bits (firstn k es) + e_len e.
Proof.
  intros H. replace (firstn (S k) es) with (firstn k es ++ [e]); [now rewrite total_bits_app|].
  revert k H. induction es as [|x r IH]; intros [|k] H; cbn in *; try discriminate.
  - now injection H as ->.
  - f_equal. auto.
Qed.

Lemma prefix_mono es a b : Forall (fun e => 0 <= e_len e) es -> (a <= b)%nat ->
  total_bits (firstn a es) <= total_bits (firstn b es).
Proof.
  intros Hpos Hab. rewrite <- (firstn_skipn a (firstn b es)), firstn_firstn, total_bits_app.
  replace (Nat.min a b) with a by lia.
  assert (0 <= total_bits (skipn a (firstn b es)))
    by (apply total_bits_nonneg; now apply Forall_firstn_skipn, Forall_firstn_skipn).
  lia.
Qed.

(* offsets are prefix sums; fields are pairwise disjoint, in order, and inside the frame *)
Theorem layout_offsets es : Forall (fun e => 0 <= e_len e) es ->
  length (offsets es) = length es /\
  (forall k e off, nth_error es k = Some e -> nth_error (offsets es) k = Some off ->
     off = total_bits (firstn k es) /\ 0 <= off /\ off + e_len e <= total_bits es) /\
  (forall i j ei ej oi oj, (i < j)%nat -> nth_error es i = Some ei -> nth_error es j = Some ej ->
     nth_error (offsets es) i = Some oi -> nth_error (offsets es) j = Some oj -> oi + e_len ei <= oj) /\
  8 * (frame_len es - 1) < total_bits es <= 8 * frame_len es.
Proof.
  intros Hpos. split; [|split; [|split]].
  - unfold offsets. generalize 0. clear Hpos. induction es; intros; cbn; auto.
  - intros k e off He Ho. apply offsets_from_nth in Ho.
    assert (Hk : (k < length es)%nat) by (apply nth_error_Some; congruence).
    pose proof (prefix_mono es 0 k Hpos ltac:(lia)) as H0.
    pose proof (prefix_mono es (S k) (length es) Hpos Hk) as H1.
    rewrite firstn_all, (prefix_step es k e He) in H1. cbn in H0. lia.
  - intros i j ei ej oi oj Hij Hi Hj Hoi Hoj.
    apply offsets_from_nth in Hoi. apply offsets_from_nth in Hoj.
    pose proof (prefix_mono es (S i) j Hpos Hij) as H. rewrite (prefix_step es i ei Hi) in H. lia.
  - unfold frame_len. Z.div_mod_to_equations. lia.
Qed.
