(* C14 - Exporting a dictionary to EDS/DCF and importing it again loses nothing.
   Statements only: each theorem is [exact] of a lemma of Proofs/{Eds_proofs.v, Src_eq_c14.v};
   the examples are concrete instances.
   Model: Model/Eds.v (export_eds / export_dcf: export_variable, export_record, add_list, _revert_variable; import_eds).
   PARTIAL: proved from the token level up; the destination kinds (file name, stream, stdout), configparser's
   writer/reader and repr(float)/float() are modelled, not verified, and tied by the correspondence. *)
From Coq Require Import ZArith List Bool Lia.
From Coq Require String.
Import String.StringSyntax.
From CV Require Import Base.Val Base.Bytes Base.Tys Gen.Tables Gen.EdsTables Gen.SrcC14 Model.Eds Model.RefEds Proofs.Eds_proofs Proofs.Src_eq_c14.
Import ListNotations.
Open Scope Z_scope.

(* value level *)
(* convert_revert for ALL integers: what _revert_variable prints ('0x%02X', '-0x..' for negative values) is read
   back by _convert_variable as the same number, for every data type of the integer class and any node id *)
Theorem C14_convert_revert_int : forall nid dt z, int_class dt = true ->
  exists t, revert_variable dt (PVInt z) = Some t /\ convert_variable nid dt t = Some (PVInt z).
Proof. exact convert_revert_int. Qed.

(* convert_revert for every kind of value: numbers, byte strings (bytes.hex / bytes.fromhex), text, and REAL
   values whose repr() is read back by float() (float_rt: the text layer of floats is modelled, see notes) *)
Theorem C14_convert_revert : forall dt v nid, value_ok dt v ->
  exists t, revert_variable dt v = Some t /\ convert_variable nid dt t = Some v.
Proof. exact convert_revert. Qed.

(* a whole number assigned as a Python int to a REAL32/REAL64 object (var.default = -40) is written as str(int) and
   read back by float() as the real number of that value (m * 10^e = z), not lost *)
Theorem C14_real_int_roundtrip : forall nid dt z,
  is_bytes_type dt = false -> is_text_type dt = false -> zmem dt FLOAT_TYPES = true ->
  exists m e, revert_variable dt (PVInt z) = Some (dec z) /\
              convert_variable nid dt (dec z) = Some (PVFloat m e) /\ 0 <= e /\ m * 10 ^ e = z.
Proof. exact real_int_roundtrip. Qed.

(* limits are written as str(v): read back for every data type; for a signed type the limit must not exceed the
   type's maximum (hypothesis forced by the code: a larger number is taken for a two's-complement pattern) *)
Theorem C14_limit_roundtrip : forall dt v, (zmem dt SIGNED_TYPES = true -> v < 2 ^ (signed_width dt - 1)) ->
  parse_limit dt (dec v) = Some v.
Proof. exact limit_roundtrip. Qed.

(* str(v) is read back by int(text) (bit rate, node id) *)
Theorem C14_int10_dec : forall v, int10 (dec v) = Some v.
Proof. exact int10_dec. Qed.

(* object level: one variable through export_variable and build_variable *)
Theorem C14_export_import_var : forall d dcf top nid v, wf_var nid v ->
  exists kv, export_variable dcf top v = Some (var_section_name top v, kv) /\
             build_variable d kv nid (v_index v) (v_sub v) = Ok (reimported' dcf v) /\
             (top = true -> read_head kv = mkHead (Some (v_name v)) (Some (s "0x7")) (v_storage v) None).
Proof. exact export_import_var'. Qed.

(* every listed attribute is kept: name, index, sub-index, data type, access type, PDO mappability, default
   (negative ones included), limits, storage location, factor, unit, description; for DCF also the parameter value *)
Theorem C14_attributes_kept : forall dcf nid v, wf_var nid v -> same_attrs dcf v (reimported' dcf v).
Proof. exact reimported'_same. Qed.

(* Object lists.
   FULL STATEMENT (C14 export_import_id): for every well-formed dictionary od with indexes >= 0x1000,
     import_ini (export_ini od t) nid equals od on all listed attributes (DCF: parameter values, bit rate, node id).
   PROVED (partial): the object sections that export_eds writes for any list of well-formed objects (variables,
   records and arrays of any number of members; what add_list emits after each of the three object lists) are
   imported as exactly those objects with every listed attribute kept (C14_attributes_kept, C14_containers_kept),
   in any surrounding document; bit rate and node id of a DCF (C14_export_import_commissioning).
   Left to the correspondence: the frame of the exported document (DeviceInfo, Comments, DummyUsage, the three
   object lists and their order), i.e. that export_ini assembles these parts, and that its document has no
   duplicate section. *)
Theorem C14_export_import_objects_partial : forall D dcf nid objs, Forall (wf_obj nid) objs ->
  exists secss, opt_all (map (export_object dcf) objs) = Some secss /\ forall rest od,
    import_sections D nid (concat secss ++ rest) od =
    import_sections D nid rest (fold_left (fun od o => add_object (reimported_obj dcf o) od) objs od).
Proof. exact export_import_objects_partial. Qed.

Theorem C14_containers_kept : forall dcf o,
  match o, reimported_obj dcf o with
  | OVar v, OVar v' => v' = reimported' dcf v
  | OCont c, OCont c' =>
      c_kind c' = c_kind c /\ c_name c' = c_name c /\ c_index c' = c_index c /\ c_storage c' = c_storage c /\
      c' = filled (mkCont (c_kind c) (c_name c) (c_index c) (c_storage c) [] [])
                  (map (fun p => reimported' dcf (snd p)) (zsort (c_subs c)))
  | _, _ => False
  end.
Proof. exact reimported_obj_shape. Qed.

(* DCF: bit rate (a multiple of 1000 bit/s) and node id come back; 0 means "not set" and comes back as None *)
Theorem C14_export_import_commissioning : forall D od nid,
  (match od_bitrate od with Some b => 0 <= b /\ b mod 1000 = 0 | None => True end) ->
  find_section D (s "DeviceComissioning") =
    Some (kvs_of [ (s "Baudrate", match od_bitrate od with Some b => if b =? 0 then None else Some (dec (b / 1000)) | None => None end);
                   (s "NodeID", match od_node_id od with Some n => if n =? 0 then None else Some (dec n) | None => None end) ]) ->
  exists od' eff, import_commissioning D nid empty_od = Ok (od', eff) /\
    od_bitrate od' = (match od_bitrate od with Some 0 => None | x => x end) /\
    (nid = None -> od_node_id od' = (match od_node_id od with Some 0 => None | x => x end)).
Proof. exact export_import_commissioning. Qed.

(* the destination does not change the document: an explicitly requested document type is honoured for every
   destination (stream, stdout, any file name, also one whose suffix names the other format); without an explicit
   type a file name selects DCF exactly when it ends in ".dcf" *)
Theorem C14_destination_type_explicit : forall dest t, t = s "eds" \/ t = s "dcf" ->
  export_od_type dest (Some t) = Ok (Some (streq t (s "dcf"))).
Proof. exact export_type_explicit. Qed.

Theorem C14_destination_type_from_name : forall name,
  export_od_type (Some name) None = Ok (Some (ends_with (s ".dcf") name)).
Proof. exact export_type_from_name. Qed.

(* source tie (DESIGN.md 4.3): the decision logic of the export side, translated from the CURRENT source text by
   tools/py2coq.py through tools/tables/src_c14.py (Gen/SrcC14.v, regenerated on every run), is the model's *)
(* export_od: explicit document type / file-name suffix / default, validation, "nothing written" *)
Theorem C14_src_export_od : forall dest t,
  export_od_type dest t =
  src_export_od (osome dest)
    (match dest with Some n => ends_with (s ".dcf") n | None => false end)
    (match dest with Some n => ends_with (s ".eds") n | None => false end) (doc_code t).
Proof. exact src_export_od_eq. Qed.

(* _revert_variable dispatches on the DATA TYPE: byte strings as hex digits, text and REAL types as they are,
   everything else as 0x.. with the sign in front *)
Theorem C14_src_revert_class : forall dt z,
  src_revert_variable false dt z =
  if is_bytes_type dt then 1 else if is_text_type dt || zmem dt FLOAT_TYPES then 2 else if z <? 0 then 4 else 5.
Proof. exact src_revert_class. Qed.

Theorem C14_src_revert_variable : forall dt v,
  revert_variable dt v =
  let code := src_revert_variable false dt (match v with PVInt z => z | _ => 0 end) in
  if code =? 1 then match v with PVBytes b => Some (tohex b) | _ => None end
  else if code =? 2 then
    (if is_text_type dt then match v with PVStr t => Some t | _ => None end
     else match v with PVFloat m e => Some (float_print (m, e)) | PVInt z => Some (dec z) | _ => None end)
  else match v with
       | PVInt z => Some (if code =? 4 then 45 :: fmt_0x02X (- z) else fmt_0x02X z)
       | _ => None
       end.
Proof. exact src_revert_variable_eq. Qed.

(* export_variable: DefaultValue is the original text if there is one, else _revert_variable of the default, else absent *)
Theorem C14_src_default_text : forall dt raw val,
  value_text dt raw val = text_by_mode (src_var_default (osome raw) (osome val) 0) dt raw val.
Proof. exact src_var_default_eq. Qed.

(* ... and the parameter value by the same rule, for a DCF only *)
Theorem C14_src_value_text : forall (dcf : bool) dt raw val pv, value_text dt raw val = Some pv ->
  let mode := src_var_value dcf (osome raw) (osome val) 0 in
  (if dcf then pv else None) = (if mode =? 0 then None else pv) /\
  text_by_mode mode dt raw val = Some (if dcf then pv else None).
Proof. exact src_var_value_eq. Qed.

(* export_common + export_variable: the section name and exactly which keys are written for one variable *)
Theorem C14_src_var_entries : forall (dcf top : bool) v dv pv,
  let '(top_, named, ot) := src_var_head top false false 0 in
  let '(w_name, w_sto) := src_export_common (match v_storage v with Some t => filled_str t | None => false end) false false in
  let '(w_dt1, w_acc) := src_var_type (v_dt v) (filled_str (v_access v)) false false in
  let '(w_dt, w_pdo) := src_var_fixed w_dt1 false in
  let '(w_low, w_high) := src_var_limits (osome (v_min v)) (osome (v_max v)) false false in
  let '(w_descr, w_factor, w_unit) :=
    src_var_text (filled_str (v_descr v)) (negb ((fst (v_factor v) =? 1) && (snd (v_factor v) =? 0)))
                 (filled_str (v_unit v)) false false false in
  var_section_name top v = (if top_ then fmt_X 4 (v_index v) else fmt_X 4 (v_index v) ++ s "sub" ++ fmt_X 0 (v_sub v)) /\
  named = true /\
  var_entries dcf v dv pv =
  [ (k_PName, if w_name then Some (v_name v) else None);
    (s "StorageLocation", if w_sto then v_storage v else None);
    (s "ObjectType", Some (s "0x" ++ fmt_X 0 ot));
    (s "DataType", if w_dt then Some (s "0x" ++ fmt_X 4 (v_dt v)) else None);
    (s "AccessType", if w_acc then Some (v_access v) else None);
    (s "DefaultValue", dv);
    (k_PValue, if dcf then pv else None);
    (s "PDOMapping", if w_pdo then Some (hex_bool (v_pdo v)) else None);
    (s "LowLimit", if w_low then option_map dec (v_min v) else None);
    (s "HighLimit", if w_high then option_map dec (v_max v) else None);
    (s "Description", if w_descr then Some (v_descr v) else None);
    (s "Factor", if w_factor then Some (float_print (v_factor v)) else None);
    (s "Unit", if w_unit then Some (v_unit v) else None) ].
Proof. exact src_var_entries_eq. Qed.

(* export_record = export_array: ObjectType 0x9 for a record, 0x8 for every array, SubNumber = number of members *)
Theorem C14_src_export_record : forall dcf c secs, export_object dcf (OCont c) = Some secs ->
  let '(ot, subnumber, members) :=
    src_export_record (match c_kind c with KRec => true | KArr => false end) (Z.of_nat (length (c_subs c))) 0 0 false in
  let '(w_name, w_sto) := src_export_common (match c_storage c with Some t => filled_str t | None => false end) false false in
  members = true /\
  hd_error secs = Some (fmt_X 4 (c_index c), kvs_of
    [ (k_PName, if w_name then Some (c_name c) else None);
      (s "StorageLocation", if w_sto then c_storage c else None);
      (s "SubNumber", Some (s "0x" ++ fmt_X 0 subnumber));
      (s "ObjectType", Some (s "0x" ++ fmt_X 0 ot)) ]).
Proof. exact src_export_record_eq. Qed.

Example C14_nv_objects :
  Forall (wf_obj (Some 5)) [ex_rec; OVar (ex_v 0 21 (Some (PVInt (-1))) None (Some 9223372036854775807))] /\
  float_rt (25, -2) /\ float_rt (-225, -2) /\ float_rt (1, 10) /\ float_rt (1, 16) /\ float_rt (6103515625, -14) /\
  (exists d, export_ini (build_od [ex_rec] (s "a") (Some 250000) (Some 5) [] [] [125000]) true = Some d /\
             length d = 12%nat /\ doc_ok d = true).
Proof.
  assert (F1 : float_rt (25, -2)) by (vm_compute; reflexivity).
  assert (F2 : float_rt (-225, -2)) by (vm_compute; reflexivity).
  split; [|split; [exact F1|split; [exact F2|]]].
  - apply Forall_cons; [|apply Forall_cons; [|apply Forall_nil]].
    + apply build_cont_wf; [lia|discriminate|]. repeat apply Forall_cons; [| | | |apply Forall_nil].
      * apply ex_v_wf; [lia|lia|eexists; reflexivity|intros _; reflexivity|intros _; reflexivity].
      * apply ex_v_wf; [lia|lia|eexists; reflexivity|exact I|exact I].
      * apply ex_v_wf; [lia|lia| |exact I|exact I].
        eexists. split; [reflexivity|]. repeat constructor; unfold byte_ok; lia.
      * apply ex_v_wf; [lia|lia|eexists _, _; split; [reflexivity|exact F2]|exact I|exact I].
    + split; [|split; [cbn; lia|reflexivity]].
      apply ex_v_wf; [lia|lia|eexists; reflexivity|exact I|intros _; reflexivity].
  - repeat split; try (vm_compute; reflexivity). eexists. vm_compute. repeat split; reflexivity.
Qed.

Print Assumptions C14_convert_revert_int.
Print Assumptions C14_convert_revert.
Print Assumptions C14_real_int_roundtrip.
Print Assumptions C14_limit_roundtrip.
Print Assumptions C14_int10_dec.
Print Assumptions C14_export_import_var.
Print Assumptions C14_attributes_kept.
Print Assumptions C14_export_import_objects_partial.
Print Assumptions C14_containers_kept.
Print Assumptions C14_export_import_commissioning.
Print Assumptions C14_destination_type_explicit.
Print Assumptions C14_destination_type_from_name.
Print Assumptions C14_src_export_od.
Print Assumptions C14_src_revert_class.
Print Assumptions C14_src_revert_variable.
Print Assumptions C14_src_default_text.
Print Assumptions C14_src_value_text.
Print Assumptions C14_src_var_entries.
Print Assumptions C14_src_export_record.
