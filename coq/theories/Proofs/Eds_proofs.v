(* EDS/DCF import and export (Model/Eds.v).  C08: the sections the reference writer of Model/RefEds.v writes for a
   description are imported as the dictionary described (import_of_written_partial, for documents without
   [DeviceInfo]), and look-ups by index, by name and by 'Parent.Child' agree (lookup_consistent).  C14: the sections
   export writes for a list of well-formed objects are imported back as those objects
   (export_import_objects_partial); bit rate and node id of a DCF and whole numbers in REAL objects are separate
   statements, and there is no theorem about a whole exported document.
   Two ideas carry most of the file: a spelled number is a sign in front of letters and digits (sign_split), which
   is all int(), float() and the readers of limits and values need; and a section with distinct keys is read key by
   key (opt_get_kvs_of), which turns every reader of a written section into look-ups in a literal list. *)
From Coq Require Import ZArith List Bool Lia.
From Coq Require String.
Import String.StringSyntax.
From CV Require Import Base.Val Base.Bits Base.Bytes Base.Tys Gen.Tables Gen.EdsTables Model.Eds Model.RefEds.
Import ListNotations.
Open Scope Z_scope.

Lemma streq_refl a : streq a a = true.
Proof. apply list_Z_eqb_refl. Qed.
Lemma streq_sym a b : streq a b = streq b a.
Proof.
  destruct (streq b a) eqn:E; [apply list_Z_eqb_eq in E; subst; apply streq_refl|].
  apply list_Z_eqb_neq. apply list_Z_eqb_neq in E. congruence.
Qed.

Definition zrange (n : Z) : list Z := map Z.of_nat (seq 0 (Z.to_nat n)).
Lemma zrange_check (P : Z -> bool) n : forallb P (zrange n) = true -> forall d, 0 <= d < n -> P d = true.
Proof. intros H d Hd. apply (range_forall P 0 (Z.to_nat n) H). lia. Qed.

Definition pval (b : Z) (ds : list Z) (acc : Z) : Z := fold_left (fun a d => a * b + d) ds acc.

Lemma pval_app b x y acc : pval b (x ++ y) acc = pval b y (pval b x acc).
Proof. apply fold_left_app. Qed.

Definition digits_ok (b : Z) (ds : list Z) : Prop := Forall (fun d => 0 <= d < b) ds.

Lemma div_below_pow b v f : 2 <= b -> 0 <= v < b ^ Z.of_nat (S f) -> 0 <= v / b < b ^ Z.of_nat f.
Proof.
  intros Hb Hv. rewrite Nat2Z.inj_succ, Z.pow_succ_r in Hv by lia.
  split; [apply Z.div_pos|apply Z.div_lt_upper_bound]; lia.
Qed.

Lemma rdigits_spec fuel : forall b v, 2 <= b -> (0 < fuel)%nat -> 0 <= v < b ^ Z.of_nat fuel ->
  pval b (rev (rdigits fuel b v)) 0 = v /\ digits_ok b (rdigits fuel b v) /\
  exists d t, rev (rdigits fuel b v) = d :: t /\ (0 < v -> d <> 0).
Proof.
  induction fuel as [|f IH]; intros b v Hb Hf Hv; [lia|].
  cbn [rdigits]. destruct (v <? b) eqn:E.
  - split; [cbn; ring|]. split; [constructor; [lia|constructor]|]. exists v, []. split; [reflexivity|lia].
  - assert (f <> O) by (intros ->; cbn in Hv; lia).
    destruct (IH b (v / b) Hb ltac:(lia) (div_below_pow b v f Hb Hv)) as (I1 & I2 & d & t & Hr & Hd).
    cbn [rev]. split; [|split].
    + rewrite pval_app, I1. cbn. rewrite Z.mul_comm. symmetry. apply Z.div_mod. lia.
    + constructor; [apply Z.mod_pos_bound; lia|exact I2].
    + exists d, (t ++ [v mod b]). rewrite Hr. split; [reflexivity|]. intros _. apply Hd, Z.div_str_pos. lia.
Qed.

Lemma rdigits_length fuel : forall b v k, 2 <= b -> 0 <= v < b ^ Z.of_nat k -> (0 < k)%nat ->
  (length (rdigits fuel b v) <= k)%nat.
Proof.
  induction fuel as [|f IH]; intros b v k Hb Hv Hk; [cbn; lia|].
  cbn [rdigits]. destruct (v <? b) eqn:E; [cbn; lia|].
  destruct k as [|[|k]]; [lia|cbn in Hv; lia|].
  cbn [length]. apply le_n_S, IH; [exact Hb|apply div_below_pow; assumption|lia].
Qed.

Lemma fuel_enough b v : 2 <= b -> 0 <= v -> v < b ^ Z.of_nat (S (Z.to_nat (Z.log2 v))).
Proof.
  intros Hb Hv. pose proof (Z.log2_nonneg v) as L.
  replace (Z.of_nat (S (Z.to_nat (Z.log2 v)))) with (Z.succ (Z.log2 v)) by lia.
  assert (v < 2 ^ Z.succ (Z.log2 v)).
  { destruct (Z.eq_dec v 0) as [->|]; [cbn; lia|]. apply Z.log2_spec. lia. }
  assert (2 ^ Z.succ (Z.log2 v) <= b ^ Z.succ (Z.log2 v)) by (apply Z.pow_le_mono_l; lia).
  lia.
Qed.

Lemma digits_spec b v : 2 <= b -> 0 <= v ->
  pval b (digits b v) 0 = v /\ digits_ok b (digits b v) /\ exists d t, digits b v = d :: t /\ (0 < v -> d <> 0).
Proof.
  intros Hb Hv. destruct (rdigits_spec (S (Z.to_nat (Z.log2 v))) b v Hb ltac:(lia)) as (A & B & C).
  { split; [lia|]. apply fuel_enough; lia. }
  split; [exact A|]. split; [apply Forall_rev, B|exact C].
Qed.

Definition nospace (c : Z) : bool := negb (is_space c).
Definition plain (c : Z) : Prop := is_space c = false.
(* letters and digits: what a spelled number is made of; none is a blank, a sign, '$', '_' or '.' *)
Definition alnum (c : Z) : Prop := 48 <= c <= 57 \/ 65 <= c <= 90 \/ 97 <= c <= 122.

Lemma hex_alnum c : is_hex c = true -> alnum c.
Proof. unfold is_hex, alnum. lia. Qed.
Lemma alnum_plain l : Forall (fun c => alnum c \/ c = 45) l -> Forall plain l.
Proof. apply Forall_impl. unfold alnum, plain, is_space. lia. Qed.

Record digit_chars (b : Z) (ch : Z -> Z) : Prop := {
  dc_val : forall d, 0 <= d < b -> digit_val (ch d) = Some d;
  dc_hex : forall d, 0 <= d < b -> is_hex (ch d) = true;
  dc_upper : forall d, 0 <= d < b -> upper_c (ch d) = hexchar_u d }.

Definition chk_chars (ch : Z -> Z) (d : Z) : bool :=
  match digit_val (ch d) with Some x => x =? d | None => false end && is_hex (ch d) && (upper_c (ch d) =? hexchar_u d).

Lemma digit_chars_of b ch : forallb (chk_chars ch) (zrange b) = true -> digit_chars b ch.
Proof.
  intros H. pose proof (zrange_check _ _ H) as K. unfold chk_chars in K.
  split; intros d Hd; specialize (K d Hd); apply andb_prop in K as [K K3]; apply andb_prop in K as [K1 K2].
  - destruct (digit_val (ch d)); [|discriminate]. f_equal. lia.
  - exact K2.
  - lia.
Qed.

Definition hexch (low : bool) : Z -> Z := if low then hexchar_l else hexchar_u.
Lemma dc_hexch low : digit_chars 16 (hexch low).
Proof. apply digit_chars_of. destruct low; vm_compute; reflexivity. Qed.
Lemma dc_dec : digit_chars 10 (fun d => 48 + d).
Proof. apply digit_chars_of. vm_compute. reflexivity. Qed.

Lemma map_chars_alnum b ch (D : digit_chars b ch) ds : digits_ok b ds -> Forall alnum (map ch ds).
Proof. intros H. apply Forall_map. eapply Forall_impl; [|exact H]. intros d Hd. apply hex_alnum, (dc_hex _ _ D), Hd. Qed.

Lemma pdigits_map b ch (D : digit_chars b ch) : forall ds acc p,
  digits_ok b ds -> (ds <> [] \/ p = true) ->
  pdigits b (map ch ds) acc p = Some (pval b ds acc).
Proof.
  induction ds as [|d r IH]; intros acc p Hd Hp.
  - destruct Hp as [Hp| ->]; [congruence|reflexivity].
  - inversion Hd as [|? ? H1 H2]; subst.
    cbn [map pdigits]. pose proof (hex_alnum _ (dc_hex _ _ D d H1)) as N.
    replace (ch d =? 95) with false by (unfold alnum in N; lia).
    rewrite (dc_val _ _ D d H1). replace (d <? b) with true by lia.
    rewrite IH by auto. reflexivity.
Qed.

Lemma map_repeat {A B} (f : A -> B) x k : map f (repeat x k) = repeat (f x) k.
Proof. induction k as [|k IH]; [reflexivity|]. cbn. rewrite IH. reflexivity. Qed.

Lemma pdigits_padded b ch (D : digit_chars b ch) k ds : 0 < b -> digits_ok b ds -> ds <> [] ->
  forall p, pdigits b (repeat 48 k ++ map ch ds) 0 p = Some (pval b ds 0).
Proof.
  intros Hb Hd Hn. induction k as [|k IH]; intros p; [apply (pdigits_map b ch D); auto|].
  cbn [repeat app pdigits]. change (48 =? 95) with false. change (digit_val 48) with (Some 0). cbn iota.
  replace (0 <? b) with true by lia. apply IH.
Qed.

Lemma lstrip_id l : Forall plain l -> lstrip l = l.
Proof. destruct 1 as [|c t H _]; [reflexivity|]. cbn. rewrite H. reflexivity. Qed.

Lemma strip_plain l : Forall plain l -> strip l = l.
Proof.
  intros H. unfold strip. rewrite (lstrip_id l H), (lstrip_id (rev l)) by (apply Forall_rev, H).
  apply rev_involutive.
Qed.

(* the sign dispatch shared by int() and float(): a '-' in front of letters and digits, or none *)
Lemma sign_split {R} (N P : str -> R) t : Forall alnum t ->
  match strip (45 :: t) with c :: r => if c =? 45 then N r else if c =? 43 then P r else P (c :: r) | [] => P [] end = N t /\
  match strip t with c :: r => if c =? 45 then N r else if c =? 43 then P r else P (c :: r) | [] => P [] end = P t.
Proof.
  intros A. assert (A' : Forall (fun c => alnum c \/ c = 45) t) by (eapply Forall_impl; [|exact A]; auto).
  rewrite !strip_plain by (apply alnum_plain; try constructor; auto). split; [reflexivity|].
  destruct A as [|c r Hc _]; [reflexivity|]. unfold alnum in Hc.
  replace (c =? 45) with false by lia. replace (c =? 43) with false by lia. reflexivity.
Qed.

(* a number written with its sign in front of a spelling of its absolute value *)
Lemma signed_text body (text : Z -> str) :
  (forall u, 0 <= u -> body (text u) = Some u /\ Forall alnum (text u)) ->
  forall v, signed body (if v <? 0 then 45 :: text (- v) else text v) = Some v.
Proof.
  intros H v. unfold signed. destruct (v <? 0) eqn:E.
  - destruct (H (- v)) as (B & A); [lia|]. rewrite (proj1 (sign_split _ _ _ A)), B. cbn. f_equal. lia.
  - destruct (H v) as (B & A); [lia|]. rewrite (proj2 (sign_split _ _ _ A)). exact B.
Qed.

Lemma int0_body_dec c t : c <> 48 -> int0_body (c :: t) = pdigits 10 (c :: t) 0 false.
Proof. intros H. unfold int0_body. replace (c =? 48) with false by lia. reflexivity. Qed.

Lemma int0_body_hex x r : x = 120 \/ x = 88 -> Forall alnum r -> int0_body (48 :: x :: r) = pdigits 16 r 0 false.
Proof.
  intros Hx Hr. unfold int0_body, prefixed. rewrite Z.eqb_refl.
  replace ((x =? 120) || (x =? 88)) with true by lia. destruct Hr as [|c t Hc _]; [reflexivity|].
  replace (c =? 95) with false by (unfold alnum in Hc; lia). reflexivity.
Qed.

Lemma hexdigits_text (low : bool) v : (if low then hex_l v else hex_u v) = map (hexch low) (digits 16 v).
Proof. destruct low; reflexivity. Qed.

Lemma pdigits_dec_u v : 0 <= v -> pdigits 10 (dec_u v) 0 false = Some v.
Proof.
  intros Hv. destruct (digits_spec 10 v ltac:(lia) Hv) as (P & D & d & t & E & _).
  unfold dec_u. rewrite (pdigits_map 10 _ dc_dec) by (exact D || (left; rewrite E; discriminate)). rewrite P. reflexivity.
Qed.

Lemma spell_nat_alnum sp v : 0 <= v -> Forall alnum (spell_nat sp v) /\ spell_nat sp v <> [].
Proof.
  intros Hv. destruct sp as [|upx low pad]; cbn [spell_nat].
  - destruct (digits_spec 10 v ltac:(lia) Hv) as (_ & D & d & t & E & _).
    split; [apply (map_chars_alnum 10 _ dc_dec), D|]. unfold dec_u. rewrite E. discriminate.
  - destruct (digits_spec 16 v ltac:(lia) Hv) as (_ & D & _). split; [|discriminate].
    constructor; [unfold alnum; lia|]. constructor; [destruct upx; unfold alnum; lia|].
    rewrite hexdigits_text. apply Forall_app. split; [|apply (map_chars_alnum 16 _ (dc_hexch low)), D].
    apply Forall_forall. intros c Hc. apply repeat_spec in Hc. unfold alnum. lia.
Qed.

Lemma spell_nat_spec sp v : 0 <= v ->
  int0_body (spell_nat sp v) = Some v /\ Forall alnum (spell_nat sp v).
Proof.
  intros Hv. split; [|apply spell_nat_alnum, Hv]. destruct sp as [|upx low pad]; cbn [spell_nat].
  - destruct (Z.eq_dec v 0) as [->|Hnz]; [reflexivity|].
    destruct (digits_spec 10 v ltac:(lia) Hv) as (_ & _ & d & t & E & Hd).
    rewrite <- (pdigits_dec_u v Hv). unfold dec_u. rewrite E. apply int0_body_dec. specialize (Hd ltac:(lia)). lia.
  - destruct (digits_spec 16 v ltac:(lia) Hv) as (P & D & d & t & E & _). rewrite int0_body_hex.
    + rewrite hexdigits_text. unfold pad0.
      rewrite (pdigits_padded 16 _ (dc_hexch low)) by (lia || exact D || (rewrite E; discriminate)). rewrite P. reflexivity.
    + destruct upx; auto.
    + destruct (spell_nat_alnum (SpHex upx low pad) v Hv) as (A & _). inversion A as [|? ? _ A2]. inversion A2. assumption.
Qed.

Lemma spell_chars sp v : Forall (fun c => alnum c \/ c = 45) (spell sp v).
Proof.
  assert (K : forall u, 0 <= u -> Forall (fun c => alnum c \/ c = 45) (spell_nat sp u)).
  { intros u Hu. eapply Forall_impl; [|apply spell_nat_alnum, Hu]. auto. }
  unfold spell. destruct (v <? 0) eqn:E; [constructor; [right; reflexivity|]|]; apply K; lia.
Qed.

Lemma spell_plain sp v : Forall plain (spell sp v).
Proof. apply alnum_plain, spell_chars. Qed.

Lemma spell_nonneg sp v : 0 <= v -> spell sp v = spell_nat sp v.
Proof. intros H. unfold spell. replace (v <? 0) with false by lia. reflexivity. Qed.

(* int(text, 0) reads every spelling of every integer *)
Lemma int0_spell sp v : int0 (spell sp v) = Some v.
Proof. exact (signed_text int0_body (spell_nat sp) (spell_nat_spec sp) v). Qed.

Lemma fmt_X_is_spell n v : 0 <= v -> 48 :: 120 :: fmt_X n v = spell_nat (SpHex false false n) v.
Proof. intros Hv. unfold fmt_X. replace (v <? 0) with false by lia. reflexivity. Qed.

(* int(text) (base 10) reads str(v) *)
Lemma int10_dec v : int10 (dec v) = Some v.
Proof.
  apply (signed_text _ dec_u). intros u Hu. split; [apply pdigits_dec_u, Hu|apply (spell_nat_alnum SpDec), Hu].
Qed.

Definition sp_upper (sp : spelling) : spelling :=
  match sp with SpDec => SpDec | SpHex _ _ pad => SpHex true false pad end.

Lemma remove_spaces_id l : Forall (fun c => alnum c \/ c = 45) l -> remove_spaces l = l.
Proof.
  induction 1 as [|c r Hc Hr IH]; [reflexivity|]. cbn. replace (c =? 32) with false by (unfold alnum in Hc; lia).
  cbn. f_equal. exact IH.
Qed.

Lemma upper_map_chars b ch (D : digit_chars b ch) ds : digits_ok b ds -> upper (map ch ds) = map hexchar_u ds.
Proof.
  intros H. unfold upper. rewrite map_map. apply map_ext_in. intros d Hd.
  unfold digits_ok in H. rewrite Forall_forall in H. apply (dc_upper _ _ D d (H d Hd)).
Qed.

Lemma upper_nat sp v : 0 <= v -> upper (spell_nat sp v) = spell_nat (sp_upper sp) v.
Proof.
  intros Hv. destruct sp as [|upx low pad]; cbn [spell_nat sp_upper].
  - destruct (digits_spec 10 v ltac:(lia) Hv) as (_ & D & _).
    unfold dec_u at 1. rewrite (upper_map_chars 10 _ dc_dec) by exact D. apply map_ext_in. intros d Hd.
    unfold digits_ok in D. rewrite Forall_forall in D. specialize (D d Hd).
    unfold hexchar_u. replace (d <? 10) with true by lia. reflexivity.
  - destruct (digits_spec 16 v ltac:(lia) Hv) as (_ & D & _).
    rewrite hexdigits_text. unfold pad0, hex_u. rewrite !map_length. unfold upper. cbn [map].
    f_equal. f_equal; [destruct upx; reflexivity|]. rewrite map_app, map_repeat. f_equal.
    apply (upper_map_chars 16 _ (dc_hexch low)), D.
Qed.

Lemma spell_upper sp v : upper (remove_spaces (spell sp v)) = spell (sp_upper sp) v.
Proof.
  rewrite remove_spaces_id by apply spell_chars. unfold spell. destruct (v <? 0) eqn:E.
  - unfold upper. cbn [map]. f_equal. apply upper_nat. lia.
  - apply upper_nat. lia.
Qed.

Lemma NODEID_lit : NODEID = [36; 78; 79; 68; 69; 73; 68].
Proof. reflexivity. Qed.

Lemma contains_no_dollar l : Forall (fun c => alnum c \/ c = 45) l -> contains NODEID l = false.
Proof.
  rewrite NODEID_lit. induction 1 as [|c r Hc Hr IH]; [reflexivity|].
  cbn [contains starts_with]. replace (36 =? c) with false by (unfold alnum in Hc; lia). cbn. exact IH.
Qed.

Lemma sub_nodeid_keep l : Forall alnum l -> forall r, sub_nodeid 0 (l ++ r) = l ++ sub_nodeid 0 r.
Proof.
  induction 1 as [|c t Hc Ht IH]; intros r; [reflexivity|]. unfold alnum in Hc.
  cbn [app sub_nodeid]. rewrite NODEID_lit. cbn [starts_with].
  replace (43 =? c) with false by lia. replace (36 =? c) with false by lia. cbn [andb].
  f_equal. apply IH.
Qed.

Definition int_class (dt : Z) : bool :=
  negb (is_bytes_type dt) && negb (is_text_type dt) && negb (zmem dt FLOAT_TYPES).

Lemma int_class_inv dt : int_class dt = true ->
  is_bytes_type dt = false /\ is_text_type dt = false /\ zmem dt FLOAT_TYPES = false.
Proof. unfold int_class. destruct (is_bytes_type dt), (is_text_type dt), (zmem dt FLOAT_TYPES); auto; discriminate. Qed.

Lemma convert_spell nid dt sp z : int_class dt = true -> convert_variable nid dt (spell sp z) = Some (PVInt z).
Proof.
  intros Hc. destruct (int_class_inv dt Hc) as (B & T & F). unfold convert_variable. rewrite B, T, F. cbv zeta.
  rewrite spell_upper, (contains_no_dollar _ (spell_chars _ _)), int0_spell. destruct nid; reflexivity.
Qed.

(* C14 value level: what _revert_variable prints, _convert_variable reads, for every integer *)
Lemma convert_revert_int nid dt z : int_class dt = true ->
  exists t, revert_variable dt (PVInt z) = Some t /\ convert_variable nid dt t = Some (PVInt z).
Proof.
  intros Hc. destruct (int_class_inv dt Hc) as (B & T & F). unfold revert_variable. rewrite B, T, F.
  eexists. split; [reflexivity|].
  replace (if z <? 0 then 45 :: fmt_0x02X (- z) else fmt_0x02X z) with (spell (SpHex false false 2) z);
    [apply convert_spell, Hc|].
  unfold spell. destruct (z <? 0) eqn:E; [f_equal|]; symmetry; apply fmt_X_is_spell; lia.
Qed.

Lemma contains_app_r p a b : contains p b = true -> contains p (a ++ b) = true.
Proof.
  intros H. induction a as [|c t IH]; [exact H|].
  rewrite <- app_comm_cons. cbn [contains]. rewrite IH. apply orb_true_r.
Qed.

(* $NODEID-relative values, both orders, with or without blanks around '+' *)
Lemma convert_relative nid dt off sp post spaces : int_class dt = true -> 0 <= off ->
  convert_variable (Some nid) dt (dvalue_text (DRel off sp post spaces)) = Some (PVInt (off + nid)).
Proof.
  intros Hc Hoff. destruct (int_class_inv dt Hc) as (B & T & F). unfold convert_variable. rewrite B, T, F. cbv zeta.
  pose proof (spell_upper sp off) as U. rewrite (spell_nonneg (sp_upper sp)) in U by exact Hoff.
  destruct (spell_nat_alnum (sp_upper sp) off Hoff) as (A & _).
  pose proof (int0_spell (sp_upper sp) off) as I. rewrite spell_nonneg in I by exact Hoff.
  assert (Pl : upper (remove_spaces (if spaces then s " + " else s "+")) = [43]) by (destruct spaces; reflexivity).
  assert (Nu : upper (remove_spaces NODEID) = NODEID) by reflexivity.
  cbn [dvalue_text]. unfold remove_spaces, upper in *. destruct post; rewrite !filter_app, !map_app, U, Pl, Nu.
  - rewrite contains_app_r by reflexivity. rewrite sub_nodeid_keep by exact A. cbn [app].
    change (sub_nodeid 0 (43 :: NODEID)) with (@nil Z). rewrite app_nil_r, I. reflexivity.
  - change (contains NODEID (NODEID ++ [43] ++ spell_nat (sp_upper sp) off)) with true. cbn iota.
    change (sub_nodeid 0 (NODEID ++ [43] ++ spell_nat (sp_upper sp) off)) with (sub_nodeid 0 (spell_nat (sp_upper sp) off)).
    rewrite <- (app_nil_r (spell_nat (sp_upper sp) off)), sub_nodeid_keep by exact A. cbn [sub_nodeid].
    rewrite app_nil_r, I. reflexivity.
Qed.

Lemma fromhex_go_hexbytes up bs : bytes_ok bs -> forall fuel, (length bs < fuel)%nat ->
  fromhex_go fuel (flat_map (hexbyte up) bs) = Some bs.
Proof.
  set (ch := hexch (negb up)). assert (D : digit_chars 16 ch) by apply dc_hexch.
  induction 1 as [|b r Hb Hr IH]; intros fuel Hf.
  - destruct fuel; [lia|reflexivity].
  - destruct fuel as [|f]; [lia|]. unfold byte_ok in Hb.
    assert (H1 : 0 <= b / 16 < 16) by (Z.div_mod_to_equations; lia).
    assert (H2 : 0 <= b mod 16 < 16) by (apply Z.mod_pos_bound; lia).
    cbn [flat_map fromhex_go].
    replace (hexbyte up b) with [ch (b / 16); ch (b mod 16)] by (destruct up; reflexivity).
    cbn [app lstrip]. replace (is_space (ch (b / 16))) with false
      by (pose proof (hex_alnum _ (dc_hex _ _ D _ H1)); unfold alnum, is_space in *; lia).
    rewrite (dc_val _ _ D _ H1), (dc_val _ _ D _ H2).
    replace ((b / 16 <? 16) && (b mod 16 <? 16)) with true by lia.
    rewrite IH by (cbn in Hf; lia). cbn [option_map]. f_equal. f_equal. Z.div_mod_to_equations. lia.
Qed.

Lemma fromhex_hexbytes up bs : bytes_ok bs -> fromhex (flat_map (hexbyte up) bs) = Some bs.
Proof.
  intros H. apply fromhex_go_hexbytes; [exact H|].
  assert (length (flat_map (hexbyte up) bs) = (2 * length bs)%nat); [|lia].
  clear H. induction bs as [|b r IH]; [reflexivity|]. cbn [flat_map]. rewrite app_length, IH. destruct up; cbn; lia.
Qed.

Definition signed_table_row (t : Z) : bool :=
  match zassoc t CALC_BIT_LENGTH with Some w => (w =? signed_width t) && (0 <? w) | None => false end.
(* the code knows the CiA 301 width of every one of the eight signed integer types *)
Lemma signed_table_ok : forallb signed_table_row SIGNED_TYPES = true /\ length SIGNED_TYPES = 8%nat.
Proof. split; vm_compute; reflexivity. Qed.

Lemma signed_width_of dt : zmem dt SIGNED_TYPES = true ->
  zassoc dt CALC_BIT_LENGTH = Some (signed_width dt) /\ 0 < signed_width dt.
Proof.
  intros H. destruct signed_table_ok as (T & _). rewrite forallb_forall in T.
  specialize (T dt (proj1 (zmem_In _ _) H)). unfold signed_table_row in T.
  destruct (zassoc dt CALC_BIT_LENGTH) as [w|]; [|discriminate]. split; [f_equal|]; lia.
Qed.

(* a limit in any plain spelling is read as the number it spells; for a signed type only if it does not
   exceed the type's maximum (a larger number is taken for a bit pattern) *)
Lemma plain_limit_written dt sp v : (zmem dt SIGNED_TYPES = true -> v < 2 ^ (signed_width dt - 1)) ->
  parse_limit dt (spell sp v) = Some v.
Proof.
  intros H. unfold parse_limit. destruct (zmem dt SIGNED_TYPES) eqn:E; [|apply int0_spell].
  destruct (signed_width_of dt E) as (-> & _). specialize (H eq_refl).
  unfold signed_int_from_hex. rewrite int0_spell.
  replace (v >? 2 ^ (signed_width dt - 1) - 1) with false by lia. reflexivity.
Qed.

(* two's-complement hex limits of signed types become negative numbers; plain spellings stay *)
Lemma signed_limit_written dt ls v : zmem dt SIGNED_TYPES = true ->
  - 2 ^ (signed_width dt - 1) <= v < 2 ^ (signed_width dt - 1) ->
  parse_limit dt (spell_limit (signed_width dt) ls v) = Some v.
Proof.
  intros Hs Hv. destruct ls as [sp|upx low pad]; cbn [spell_limit]; [apply plain_limit_written; lia|].
  destruct (signed_width_of dt Hs) as (Hw & Hpos).
  unfold parse_limit. rewrite Hs, Hw. unfold signed_int_from_hex.
  set (w := signed_width dt) in *.
  pose proof (pow_split w ltac:(lia)) as P2.
  assert (0 < 2 ^ (w - 1)) by (apply Z.pow_pos_nonneg; lia).
  rewrite <- spell_nonneg, int0_spell by (apply Z.mod_pos_bound; lia). f_equal.
  destruct (0 <=? v) eqn:S.
  - rewrite Z.mod_small by lia. replace (v >? 2 ^ (w - 1) - 1) with false by lia. reflexivity.
  - replace (v mod 2 ^ w) with (v + 2 ^ w).
    + replace (v + 2 ^ w >? 2 ^ (w - 1) - 1) with true by lia. lia.
    + symmetry. rewrite <- (Z.mod_add v 1 (2 ^ w)) by lia. rewrite Z.mul_1_l. apply Z.mod_small. lia.
Qed.

Lemma other_limit_written dt sp v : zmem dt SIGNED_TYPES = false -> parse_limit dt (spell sp v) = Some v.
Proof. intros H. apply plain_limit_written. congruence. Qed.

(* C14: a limit exported as str(v) is read back, for every data type, provided a limit of a signed
   type does not exceed the type's maximum (a larger number would be taken for a bit pattern) *)
Lemma limit_roundtrip dt v : (zmem dt SIGNED_TYPES = true -> v < 2 ^ (signed_width dt - 1)) ->
  parse_limit dt (dec v) = Some v.
Proof. exact (plain_limit_written dt SpDec v). Qed.

Lemma sassoc_app_str {A} key (x y : list (str * A)) :
  sassoc key (x ++ y) = match sassoc key x with Some a => Some a | None => sassoc key y end.
Proof. induction x as [|[k' a] t IHx]; [reflexivity|]. cbn [app sassoc]. destruct (streq key k'); [reflexivity|exact IHx]. Qed.

Lemma opt_get_kvs_nil k : opt_get (kvs_of []) k = None.
Proof. reflexivity. Qed.

Lemma opt_get_kvs_cons k k' o r :
  opt_get (kvs_of ((k', o) :: r)) k =
  match o with Some t => if streq k k' then Some t else opt_get (kvs_of r) k | None => opt_get (kvs_of r) k end.
Proof. unfold opt_get, kvs_of. cbn [flat_map fst snd]. destruct o; reflexivity. Qed.

Lemma opt_get_kvs_absent k es : existsb (streq k) (map fst es) = false -> opt_get (kvs_of es) k = None.
Proof.
  induction es as [|[k' o] r IH]; [reflexivity|]. cbn [map fst existsb]. intros H. apply orb_false_elim in H as [H1 H2].
  rewrite opt_get_kvs_cons, H1, (IH H2). destruct o; reflexivity.
Qed.

(* a section whose keys are distinct is read as it was written: each key gives its entry, an entry
   without value or a key that was not written gives nothing.  With a list of closed keys both
   the hypothesis and every [sassoc] on the right are evaluated on the keys alone. *)
Lemma opt_get_kvs_of es k : nodup_str (map fst es) = true ->
  opt_get (kvs_of es) k = match sassoc k es with Some o => o | None => None end.
Proof.
  induction es as [|[k' o] r IH]; [reflexivity|]. cbn [map fst nodup_str sassoc]. intros H. apply andb_prop in H as [H1 H2].
  rewrite opt_get_kvs_cons, (IH H2). destruct (streq k k') eqn:E; [|destruct o; reflexivity].
  apply list_Z_eqb_eq in E. subst k'. destruct o as [t|]; [reflexivity|].
  rewrite <- (IH H2). apply opt_get_kvs_absent. destruct (existsb (streq k) (map fst r)); [discriminate|reflexivity].
Qed.

(* read_var asks for twelve keys, one for each field: whatever agrees with a section on them is read alike.
   (Rewriting under mkRaw instead, key by key, carries the twelve literal keys through every step.) *)
Definition var_key_list : list str :=
  [ k_PName; s "StorageLocation"; s "DataType"; s "AccessType"; s "PDOMapping"; s "LowLimit"; s "HighLimit";
    s "DefaultValue"; k_PValue; s "Factor"; s "Description"; s "Unit" ].
Definition raw_of (l : list (option str)) : rawvar :=
  match l with
  | [a; b; c; d; e; f; g; h; i; j; k; m] => mkRaw a b c d e f g h i j k m
  | _ => read_var []
  end.
Lemma read_var_keys kv : read_var kv = raw_of (map (opt_get kv) var_key_list).
Proof. reflexivity. Qed.

Lemma read_var_kvs_of es : nodup_str (map fst es) = true ->
  read_var (kvs_of es) = raw_of (map (fun k => match sassoc k es with Some o => o | None => None end) var_key_list).
Proof. intros D. rewrite read_var_keys. f_equal. apply map_ext. intros k. apply opt_get_kvs_of, D. Qed.

Lemma read_head_kvs_of es : nodup_str (map fst es) = true ->
  read_head (kvs_of es) =
  let get k := match sassoc k es with Some o => o | None => None end in
  mkHead (get k_PName) (get (s "ObjectType")) (get (s "StorageLocation")) (get (s "CompactSubObj")).
Proof. intros D. unfold read_head. rewrite !(opt_get_kvs_of es _ D). reflexivity. Qed.

(* an entry under a key that is not asked for does not matter *)
Lemma opt_get_kvs_snoc es k' o k : streq k k' = false -> opt_get (kvs_of (es ++ [(k', o)])) k = opt_get (kvs_of es) k.
Proof.
  intros H. unfold opt_get, kvs_of. rewrite flat_map_app, sassoc_app_str. cbn [flat_map fst snd].
  destruct (sassoc k _); [reflexivity|]. destruct o; [|reflexivity]. cbn [app sassoc]. rewrite H. reflexivity.
Qed.

(* what build_variable reads from a section written by export_variable *)
Lemma read_var_exported dcf v dv pv :
  read_var (kvs_of (var_entries dcf v dv pv)) =
  mkRaw (Some (v_name v)) (match v_storage v with Some t => nonempty t | None => None end)
        (Some (s "0x" ++ fmt_X 4 (v_dt v))) (nonempty (v_access v)) (Some (hex_bool (v_pdo v)))
        (option_map dec (v_min v)) (option_map dec (v_max v)) dv (if dcf then pv else None)
        (if (fst (v_factor v) =? 1) && (snd (v_factor v) =? 0) then None else Some (float_print (v_factor v)))
        (nonempty (v_descr v)) (nonempty (v_unit v)).
Proof. apply read_var_kvs_of. reflexivity. Qed.

(* ... and from a section written by the reference writer (with or without ObjectType) *)
Lemma read_var_written name ot (v : vdesc) :
  read_var (kvs_of ((k_PName, Some name) :: (s "ObjectType", ot) :: var_keys v)) =
  mkRaw (Some name) (d_storage v) (Some (spell (d_dt_sp v) (d_dt v))) (Some (d_access v))
        (option_map (fun p : bool * spelling => spell (snd p) (if fst p then 1 else 0)) (d_pdo v))
        (option_map (fun p : Z * limit_spelling => spell_limit (signed_width (d_dt v)) (snd p) (fst p)) (d_low v))
        (option_map (fun p : Z * limit_spelling => spell_limit (signed_width (d_dt v)) (snd p) (fst p)) (d_high v))
        (option_map dvalue_text (d_default v)) (option_map dvalue_text (d_pvalue v))
        (option_map snd (d_factor v)) (d_descr v) (d_unit v).
Proof. apply read_var_kvs_of. reflexivity. Qed.

Definition float_rt (f : Z * Z) : Prop := float_parse (float_print f) = Some f.

Definition value_ok (dt : Z) (v : pyv) : Prop :=
  if is_bytes_type dt then exists b, v = PVBytes b /\ bytes_ok b
  else if is_text_type dt then exists t, v = PVStr t
  else if zmem dt FLOAT_TYPES then exists m e, v = PVFloat m e /\ float_rt (m, e)
  else exists z, v = PVInt z.

Lemma convert_revert dt v nid : value_ok dt v ->
  exists t, revert_variable dt v = Some t /\ convert_variable nid dt t = Some v.
Proof.
  unfold value_ok. destruct (is_bytes_type dt) eqn:B.
  { intros (b & -> & Hb). unfold revert_variable, convert_variable. rewrite B. eexists. split; [reflexivity|].
    change (tohex b) with (flat_map (hexbyte false) b). rewrite fromhex_hexbytes by exact Hb. reflexivity. }
  destruct (is_text_type dt) eqn:T.
  { intros (t & ->). exists t. unfold revert_variable, convert_variable. rewrite B, T. split; reflexivity. }
  destruct (zmem dt FLOAT_TYPES) eqn:F.
  - intros (m & e & -> & Hf). unfold revert_variable, convert_variable. rewrite B, T, F.
    eexists. split; [reflexivity|]. rewrite Hf. reflexivity.
  - intros (z & ->). apply convert_revert_int. unfold int_class. rewrite B, T, F. reflexivity.
Qed.

(* the original text, when kept, must mean the value (dictionaries that came from a file);
   dictionaries built in code have no original text *)
Definition raw_ok (nid : option Z) (dt : Z) (raw : option str) (val : option pyv) : Prop :=
  match raw with
  | Some t => convert_variable nid dt t = val
  | None => match val with Some x => value_ok dt x | None => True end
  end.

Lemma value_text_roundtrip nid dt raw val : raw_ok nid dt raw val ->
  exists o, value_text dt raw val = Some o /\
            match o with Some t => convert_variable nid dt t | None => None end = val.
Proof.
  unfold raw_ok, value_text. destruct raw as [t|]; [intros H; exists (Some t); split; [reflexivity|exact H]|].
  destruct val as [x|]; [|exists None; split; reflexivity].
  intros H. destruct (convert_revert dt x nid H) as (t & R & C). rewrite R. exists (Some t). split; [reflexivity|exact C].
Qed.

Record wf_var (nid : option Z) (v : odvar) : Prop := {
  wv_dt : 0 <= v_dt v <= 27;
  wv_access : v_access v <> [] /\ lower (v_access v) = v_access v;
  wv_storage : v_storage v <> Some [];
  wv_default : raw_ok nid (v_dt v) (v_default_raw v) (v_default v);
  wv_value : raw_ok nid (v_dt v) (v_value_raw v) (v_value v);
  wv_min : forall z, v_min v = Some z -> zmem (v_dt v) SIGNED_TYPES = true -> z < 2 ^ (signed_width (v_dt v) - 1);
  wv_max : forall z, v_max v = Some z -> zmem (v_dt v) SIGNED_TYPES = true -> z < 2 ^ (signed_width (v_dt v) - 1);
  wv_factor : v_factor v = (1, 0) \/ float_rt (v_factor v) }.

(* the attributes the property lists *)
Definition same_attrs (dcf : bool) (v v' : odvar) : Prop :=
  v_name v' = v_name v /\ v_index v' = v_index v /\ v_sub v' = v_sub v /\ v_dt v' = v_dt v /\
  v_access v' = v_access v /\ v_pdo v' = v_pdo v /\ v_default v' = v_default v /\
  v_min v' = v_min v /\ v_max v' = v_max v /\ v_storage v' = v_storage v /\
  v_factor v' = v_factor v /\ v_unit v' = v_unit v /\ v_descr v' = v_descr v /\
  (dcf = true -> v_value v' = v_value v).

Lemma nonempty_back t : match nonempty t with Some x => x | None => [] end = t.
Proof. destruct t; reflexivity. Qed.
Lemma storage_back (o : option str) : o <> Some [] -> match o with Some t => nonempty t | None => None end = o.
Proof. intros H. destruct o as [[|c t]|]; [destruct H|..]; reflexivity. Qed.

Lemma req_int0_spell sp z : req_int0 (spell sp z) = Ok z.
Proof. unfold req_int0. rewrite int0_spell. reflexivity. Qed.

(* build_variable on a section that gives name, access type and a data type below 0x1C *)
Lemma interp_var_ok d nid index sub name sto dts acc pdot low high dv pv fac descr unit dt pdo :
  req_int0 dts = Ok dt -> dt <= 27 -> req_int0 (match pdot with Some t => t | None => s "0" end) = Ok pdo ->
  interp_var d (mkRaw (Some name) sto (Some dts) (Some acc) pdot low high dv pv fac descr unit) nid index sub =
  Ok (mkVar name index sub dt (lower acc) (negb (pdo =? 0))
        (match dv with Some t => convert_variable nid dt t | None => None end)
        (match low with Some t => parse_limit dt t | None => None end)
        (match high with Some t => parse_limit dt t | None => None end)
        (match pv with Some t => convert_variable nid dt t | None => None end)
        dv pv (match dv with Some t => contains NODEID t | None => false end) sto
        (match fac with Some t => match float_parse t with Some f => f | None => (1, 0) end | None => (1, 0) end)
        (match unit with Some t => t | None => [] end) (match descr with Some t => t | None => [] end)).
Proof.
  intros H1 H2 H3. unfold interp_var. cbn [r_name r_dt r_access r_pdo req rbind]. rewrite H1. cbn [rbind].
  replace (dt >? 27) with false by lia. cbn [rbind]. rewrite H3. reflexivity.
Qed.

(* what import makes of the section export writes for v *)
Definition reimported (dcf : bool) (v : odvar) (dv pv : option str) : odvar :=
  mkVar (v_name v) (v_index v) (v_sub v) (v_dt v) (v_access v) (v_pdo v) (v_default v) (v_min v) (v_max v)
        (if dcf then v_value v else None) dv (if dcf then pv else None)
        (match dv with Some t => contains NODEID t | None => false end)
        (v_storage v) (v_factor v) (v_unit v) (v_descr v).

(* C14, object level: one variable through export_variable and build_variable *)
Lemma export_import_var d dcf top nid v : wf_var nid v ->
  exists dv pv, value_text (v_dt v) (v_default_raw v) (v_default v) = Some dv /\
    value_text (v_dt v) (v_value_raw v) (v_value v) = Some pv /\
    export_variable dcf top v = Some (var_section_name top v, kvs_of (var_entries dcf v dv pv)) /\
    build_variable d (kvs_of (var_entries dcf v dv pv)) nid (v_index v) (v_sub v) = Ok (reimported dcf v dv pv).
Proof.
  intros [Hdt [Ha1 Ha2] Hst Hd Hv Hmin Hmax Hf].
  destruct (value_text_roundtrip _ _ _ _ Hd) as (dv & Ed & Cd).
  destruct (value_text_roundtrip _ _ _ _ Hv) as (pv & Ev & Cv).
  exists dv, pv. split; [exact Ed|]. split; [exact Ev|]. unfold export_variable. rewrite Ed, Ev. split; [reflexivity|].
  unfold build_variable. rewrite read_var_exported.
  replace (nonempty (v_access v)) with (Some (v_access v)) by (destruct (v_access v); [congruence|reflexivity]).
  assert (Edt : req_int0 (s "0x" ++ fmt_X 4 (v_dt v)) = Ok (v_dt v)).
  { change (s "0x" ++ fmt_X 4 (v_dt v)) with (48 :: 120 :: fmt_X 4 (v_dt v)).
    rewrite fmt_X_is_spell, <- spell_nonneg by lia. apply req_int0_spell. }
  rewrite interp_var_ok with (dt := v_dt v) (pdo := if v_pdo v then 1 else 0)
    by (exact Edt || lia || (destruct (v_pdo v); reflexivity)).
  assert (Lim : forall o, (forall z, o = Some z -> zmem (v_dt v) SIGNED_TYPES = true -> z < 2 ^ (signed_width (v_dt v) - 1)) ->
                match option_map dec o with Some t => parse_limit (v_dt v) t | None => None end = o).
  { intros [z|] H; [|reflexivity]. cbn. apply limit_roundtrip. intros S. apply (H z eq_refl S). }
  assert (Fa : match (if (fst (v_factor v) =? 1) && (snd (v_factor v) =? 0) then None else Some (float_print (v_factor v))) with
               | Some t => match float_parse t with Some f => f | None => (1, 0) end
               | None => (1, 0) end = v_factor v).
  { destruct ((fst (v_factor v) =? 1) && (snd (v_factor v) =? 0)) eqn:E.
    - destruct (v_factor v) as [m e]. cbn in E. f_equal; lia.
    - destruct Hf as [Hf|Hf]; [rewrite Hf in E; discriminate|]. unfold float_rt in Hf. rewrite Hf. reflexivity. }
  unfold reimported. rewrite (Lim _ Hmin), (Lim _ Hmax), (storage_back _ Hst), Ha2, Cd, Fa, !nonempty_back.
  destruct (v_pdo v), dcf; [rewrite Cv| |rewrite Cv|]; reflexivity.
Qed.

Definition dvalue_ok (nid : option Z) (dt : Z) (d : dvalue) : Prop :=
  match d with
  | DInt _ _ => int_class dt = true
  | DRel off _ _ _ => int_class dt = true /\ 0 <= off /\ nid <> None      (* resolved against the node id in force *)
  | DStr _ => is_bytes_type dt = false /\ is_text_type dt = true
  | DBytes b _ => is_bytes_type dt = true /\ bytes_ok b
  | DFloat f t => is_bytes_type dt = false /\ is_text_type dt = false /\ zmem dt FLOAT_TYPES = true /\ float_parse t = Some f
  end.

Definition limit_ok (dt : Z) (l : option (Z * limit_spelling)) : Prop :=
  match l with
  | None => True
  | Some (v, ls) =>
      if zmem dt SIGNED_TYPES then - 2 ^ (signed_width dt - 1) <= v < 2 ^ (signed_width dt - 1)
      else exists sp, ls = LPlain sp
  end.

Record wf_vdesc (nid : option Z) (v : vdesc) : Prop := {
  wd_dt : 0 <= d_dt v <= 27;
  wd_default : match d_default v with Some x => dvalue_ok nid (d_dt v) x | None => True end;
  wd_pvalue : match d_pvalue v with Some x => dvalue_ok nid (d_dt v) x | None => True end;
  wd_low : limit_ok (d_dt v) (d_low v);
  wd_high : limit_ok (d_dt v) (d_high v);
  wd_factor : match d_factor v with Some (f, t) => float_parse t = Some f | None => True end }.

Lemma convert_written nid dt x : dvalue_ok nid dt x -> convert_variable nid dt (dvalue_text x) = dvalue_sem nid x.
Proof.
  destruct x as [z sp|off sp post spaces|t|b up|f t]; cbn [dvalue_ok dvalue_sem].
  - intros H. apply convert_spell, H.
  - intros (H & Ho & Hn). destruct nid as [n|]; [|congruence]. cbn [option_map]. apply convert_relative; assumption.
  - intros (H1 & H2). unfold convert_variable. cbn [dvalue_text]. rewrite H1, H2. reflexivity.
  - intros (H1 & H2). unfold convert_variable. cbn [dvalue_text]. rewrite H1, fromhex_hexbytes by exact H2. reflexivity.
  - intros (H1 & H2 & H3 & H4). unfold convert_variable. cbn [dvalue_text]. rewrite H1, H2, H3, H4. destruct f; reflexivity.
Qed.

Lemma limit_written dt l : limit_ok dt l ->
  match option_map (fun p : Z * limit_spelling => spell_limit (signed_width dt) (snd p) (fst p)) l with
  | Some t => parse_limit dt t | None => None end = option_map fst l.
Proof.
  destruct l as [[v ls]|]; [|reflexivity]. cbn [limit_ok option_map fst snd].
  destruct (zmem dt SIGNED_TYPES) eqn:E.
  - intros H. apply signed_limit_written; assumption.
  - intros (sp & ->). cbn [spell_limit]. apply other_limit_written, E.
Qed.

(* C08, object level: a written variable section is imported as the described variable *)
Lemma import_written_var d nid index sub name ot (v : vdesc) : wf_vdesc nid v ->
  build_variable d (kvs_of ((k_PName, Some name) :: (s "ObjectType", ot) :: var_keys v)) nid index sub
  = Ok (described_var nid index sub name v).
Proof.
  intros [Hdt Hd Hp Hl Hh Hf]. unfold build_variable. rewrite read_var_written.
  rewrite interp_var_ok with (dt := d_dt v) (pdo := match d_pdo v with Some (true, _) => 1 | _ => 0 end)
    by (apply req_int0_spell || lia || (destruct (d_pdo v) as [[[|] sp]|]; [apply req_int0_spell..|reflexivity])).
  assert (Cv : forall o, match o with Some x => dvalue_ok nid (d_dt v) x | None => True end ->
               match option_map dvalue_text o with Some t => convert_variable nid (d_dt v) t | None => None end
               = match o with Some x => dvalue_sem nid x | None => None end).
  { intros [x|] H; [|reflexivity]. cbn [option_map]. apply convert_written, H. }
  unfold described_var. rewrite (limit_written _ _ Hl), (limit_written _ _ Hh), (Cv _ Hd), (Cv _ Hp).
  replace (match option_map snd (d_factor v) with
           | Some t => match float_parse t with Some f => f | None => (1, 0) end
           | None => (1, 0) end) with (match d_factor v with Some (f, _) => f | None => (1, 0) end)
    by (destruct (d_factor v) as [[f t]|]; [cbn [option_map snd]; rewrite Hf|]; reflexivity).
  destruct (d_pdo v) as [[[|] sp]|], (d_default v); reflexivity.
Qed.

Definition hexstep (a c : Z) : Z := a * 16 + match digit_val c with Some d => d | None => 0 end.

Definition hexchar_lower_ok (c : Z) : bool :=
  implb (is_hex c) (is_hex (lower_c c) && match digit_val c, digit_val (lower_c c) with
                                          | Some x, Some y => x =? y | _, _ => false end).
Lemma hexchars_lower_ok : forallb hexchar_lower_ok (zrange 128) = true.
Proof. vm_compute. reflexivity. Qed.
Lemma is_hex_lower c : is_hex c = true -> is_hex (lower_c c) = true /\ digit_val (lower_c c) = digit_val c.
Proof.
  intros H. assert (B : 0 <= c < 128) by (unfold is_hex in H; lia).
  pose proof (zrange_check _ _ hexchars_lower_ok c B) as K. unfold hexchar_lower_ok in K. rewrite H in K.
  cbn [implb] in K. apply andb_prop in K as [K1 K2]. split; [exact K1|].
  destruct (digit_val c), (digit_val (lower_c c)); try discriminate. f_equal. lia.
Qed.

(* a hexadecimal name in either case: same length, same value *)
Definition cased (lo : bool) (h : str) : str := if lo then lower h else h.
Lemma cased_hex lo h : forallb is_hex h = true ->
  length (cased lo h) = length h /\ forallb is_hex (cased lo h) = true /\ hexval (cased lo h) = hexval h.
Proof.
  destruct lo; [|auto]. intros H. split; [apply map_length|]. unfold hexval. fold hexstep. generalize 0.
  induction h as [|c r IH]; intros acc; [split; reflexivity|].
  cbn [forallb] in H. apply andb_prop in H as [Hc Hr]. destruct (is_hex_lower c Hc) as (E1 & E2).
  cbn [cased lower map forallb fold_left]. rewrite E1.
  replace (hexstep acc (lower_c c)) with (hexstep acc c) by (unfold hexstep; rewrite E2; reflexivity). apply (IH Hr).
Qed.

Lemma hexval_go_chars ch (D : digit_chars 16 ch) ds : digits_ok 16 ds -> forall acc,
  fold_left hexstep (map ch ds) acc = pval 16 ds acc.
Proof.
  induction 1 as [|d r Hd Hr IH]; intros acc; [reflexivity|].
  cbn [map fold_left]. unfold hexstep at 2. rewrite (dc_val _ _ D d Hd). apply IH.
Qed.

(* f"{i:0nX}" for i below 16^k: at least n and at most max(n, k) hexadecimal digits that spell i *)
Lemma fmt_X_facts n k i : (0 < k)%nat -> 0 <= i < 16 ^ Z.of_nat k ->
  (n <= length (fmt_X n i) /\ 1 <= length (fmt_X n i) <= Nat.max n k)%nat /\
  forallb is_hex (fmt_X n i) = true /\ hexval (fmt_X n i) = i.
Proof.
  intros Hk H. unfold fmt_X. replace (i <? 0) with false by lia.
  destruct (digits_spec 16 i ltac:(lia) ltac:(lia)) as (P & D & d0 & t & E & _).
  assert (L : (1 <= length (digits 16 i) <= k)%nat).
  { split; [rewrite E; cbn; lia|].
    unfold digits. rewrite rev_length. apply rdigits_length; [lia|exact H|exact Hk]. }
  unfold pad0, hex_u. rewrite map_length. set (z := (n - length (digits 16 i))%nat).
  split; [rewrite app_length, repeat_length, map_length; lia|]. split.
  - rewrite forallb_app. apply andb_true_intro. split; apply forallb_forall; intros c Hc.
    + apply repeat_spec in Hc. subst. reflexivity.
    + apply in_map_iff in Hc as (d & <- & Hd). unfold digits_ok in D. rewrite Forall_forall in D.
      apply (dc_hex _ _ (dc_hexch false)), D, Hd.
  - unfold hexval. fold hexstep. rewrite fold_left_app.
    replace (fold_left hexstep (repeat 48 z) 0) with 0 by (clear; induction z as [|z IH]; [reflexivity|exact IH]).
    rewrite (hexval_go_chars _ (dc_hexch false)) by exact D. exact P.
Qed.

Definition sub_text (lower_sub : bool) (j : Z) : str := if lower_sub then lower (fmt_X 0 j) else fmt_X 0 j.

Lemma dummy_needs_10 n : length n <> 10%nat -> is_dummy_name n = false.
Proof. intros H. unfold is_dummy_name. replace (length n =? 10)%nat with false; [reflexivity|]. symmetry. apply Nat.eqb_neq, H. Qed.

Lemma index_name_facts lo i : 0 <= i < 65536 ->
  length (sec_name lo i) = 4%nat /\ forallb is_hex (sec_name lo i) = true /\ is_index_name (sec_name lo i) = true /\
  hexval (sec_name lo i) = i /\ is_dummy_name (sec_name lo i) = false.
Proof.
  intros H. destruct (fmt_X_facts 4 4 i) as (L & X & V); [lia|exact H|].
  destruct (cased_hex lo _ X) as (A1 & A2 & A3). change (cased lo (fmt_X 4 i)) with (sec_name lo i) in *.
  assert (A : length (sec_name lo i) = 4%nat) by lia. rewrite V in A3.
  repeat split; try assumption.
  - unfold is_index_name. rewrite A, A2. reflexivity.
  - apply dummy_needs_10. rewrite A. discriminate.
Qed.

Lemma sub_name_facts lo j : 0 <= j < 256 ->
  (1 <= length (sub_text lo j) <= 2)%nat /\ forallb is_hex (sub_text lo j) = true /\ hexval (sub_text lo j) = j.
Proof.
  intros H. destruct (fmt_X_facts 0 2 j) as (L & X & V); [lia|exact H|].
  destruct (cased_hex lo _ X) as (A1 & A2 & A3). change (cased lo (fmt_X 0 j)) with (sub_text lo j) in *.
  rewrite V in A3. repeat split; try assumption; lia.
Qed.

Lemma zassoc_zset {A} k k' (a : A) l : zassoc k (zset k' a l) = if k =? k' then Some a else zassoc k l.
Proof.
  unfold zset. induction l as [|[k2 b] r IH]; [reflexivity|]. cbn [filter fst zassoc].
  destruct (k' =? k2) eqn:E2; cbn [negb app zassoc]; rewrite IH; destruct (k =? k') eqn:E; destruct (k =? k2) eqn:E3; reflexivity || lia.
Qed.

Lemma sassoc_sset {A} k k' (a : A) l : sassoc k (sset k' a l) = if streq k k' then Some a else sassoc k l.
Proof.
  unfold sset. induction l as [|[k2 b] r IH]; [reflexivity|]. cbn [filter fst sassoc].
  destruct (streq k' k2) eqn:E2; cbn [negb app sassoc]; rewrite IH; destruct (streq k k') eqn:E; destruct (streq k k2) eqn:E3;
    try reflexivity; apply list_Z_eqb_eq in E3; subst k2.
  - apply list_Z_eqb_eq in E2. subst k'. rewrite streq_refl in E. discriminate.
  - apply list_Z_eqb_eq in E. subst k'. rewrite streq_refl in E2. discriminate.
Qed.

Lemma set_nth_last {A} (h : list A) o o' : set_nth (length h) o' (h ++ [o]) = h ++ [o'].
Proof. induction h as [|x r IH]; [reflexivity|]. cbn. f_equal. exact IH. Qed.

Lemma od_get_added o od : od_get_int (add_object o od) (obj_index o) = Ok (length (od_heap od), o).
Proof.
  unfold od_get_int, add_object. cbn [od_indices od_heap]. rewrite zassoc_zset, Z.eqb_refl.
  rewrite nth_error_app2 by lia. rewrite Nat.sub_diag. reflexivity.
Qed.

Lemma set_heap_added o o' od : obj_index o' = obj_index o -> obj_name o' = obj_name o ->
  set_heap (length (od_heap od)) o' (add_object o od) = add_object o' od.
Proof.
  intros Hi Hn. unfold set_heap, add_object. cbn [od_heap od_indices od_names od_comments od_bitrate od_node_id od_devinfo od_bools od_baud].
  rewrite set_nth_last, Hi, Hn. reflexivity.
Qed.

(* a member section read into the container that was added last *)
Lemma import_sub_added D nid kv c od sub v : build_variable D kv nid (c_index c) sub = Ok v ->
  import_sub D kv nid (c_index c) sub (add_object (OCont c) od) = Ok (add_object (OCont (add_member v c)) od).
Proof.
  intros H. unfold import_sub. change (c_index c) with (obj_index (OCont c)) at 1. rewrite od_get_added.
  cbn [rbind snd fst]. rewrite H. cbn [rbind]. rewrite set_heap_added by reflexivity. reflexivity.
Qed.

Lemma import_section_other D nid n kv od :
  is_dummy_name n = false -> is_index_name n = false -> sub_match n = None -> name_match n = None ->
  import_section D nid (n, kv) od = Ok od.
Proof. intros H1 H2 H3 H4. unfold import_section. rewrite H1, H2, H3, H4. reflexivity. Qed.

Lemma import_index_section D nid lo index kv od : 0 <= index < 65536 ->
  import_section D nid (sec_name lo index, kv) od = import_index D kv nid index od.
Proof.
  intros Hi. destruct (index_name_facts lo index Hi) as (_ & _ & N1 & N2 & N3).
  unfold import_section. rewrite N3. cbn [rbind]. rewrite N1, N2. reflexivity.
Qed.

Definition member_name (lo cap_sub lower_sub : bool) (index sub : Z) : str :=
  sec_name lo index ++ (if cap_sub then s "Sub" else s "sub") ++ sub_text lower_sub sub.

(* a section whose name goes on after the four digits of an index is a member section, a name list or neither *)
Lemma import_suffixed_section D nid lo index c r kv od : 0 <= index < 65536 -> length r <> 5%nat ->
  import_section D nid (sec_name lo index ++ c :: r, kv) od =
  rbind (if ((c =? 83) || (c =? 124) || (c =? 115)) && starts_with (s "ub") r &&
            negb (length (skipn 2 r) =? 0)%nat && forallb is_hex (skipn 2 r)
         then import_sub D kv nid index (hexval (skipn 2 r)) od else Ok od)
        (fun od => if starts_with (s "Name") (c :: r) then import_names kv index od else Ok od).
Proof.
  intros Hi Hr. destruct (index_name_facts lo index Hi) as (L & X & _ & V & _).
  unfold import_section. set (sec := sec_name lo index) in *.
  pose proof (firstn_app_exact sec (c :: r) 4 L) as F. pose proof (skipn_app_exact sec (c :: r) 4 L) as S.
  assert (Len : length (sec ++ c :: r) = (5 + length r)%nat) by (rewrite app_length, L; reflexivity).
  rewrite dummy_needs_10 by lia. unfold is_index_name, sub_match, name_match. rewrite Len, F, S, L, X, V.
  cbv zeta. cbn [rbind Nat.eqb Nat.add andb].
  destruct (((c =? 83) || (c =? 124) || (c =? 115)) && _ && _ && _), (starts_with (s "Name") (c :: r)); reflexivity.
Qed.

Lemma import_member_section D nid lo cap lowsub index sub kv od : 0 <= index < 65536 -> 0 <= sub < 256 ->
  import_section D nid (member_name lo cap lowsub index sub, kv) od = import_sub D kv nid index sub od.
Proof.
  intros Hi Hs. destruct (sub_name_facts lowsub sub Hs) as (L & X & V). unfold member_name.
  replace ((if cap then s "Sub" else s "sub") ++ sub_text lowsub sub)
    with ((if cap then 83 else 115) :: 117 :: 98 :: sub_text lowsub sub) by (destruct cap; reflexivity).
  rewrite import_suffixed_section by (cbn [length]; lia). cbn [starts_with skipn].
  replace (((if cap then 83 else 115) =? 83) || ((if cap then 83 else 115) =? 124) || ((if cap then 83 else 115) =? 115))
    with true by (destruct cap; reflexivity).
  rewrite X, V. replace (length (sub_text lowsub sub) =? 0)%nat with false by (symmetry; apply Nat.eqb_neq; lia).
  replace (starts_with (s "Name") ((if cap then 83 else 115) :: 117 :: 98 :: sub_text lowsub sub)) with false by (destruct cap; reflexivity).
  cbn [andb negb]. destruct (import_sub D kv nid index sub od); reflexivity.
Qed.

Lemma import_name_section D nid lo index kv od : 0 <= index < 65536 ->
  import_section D nid (sec_name lo index ++ s "Name", kv) od = import_names kv index od.
Proof. intros Hi. exact (import_suffixed_section D nid lo index 78 (s "ame") kv od Hi ltac:(discriminate)). Qed.

(* import_eds on an index section, by the kind of object its head announces *)
Lemma import_index_var D kv nid index od name ot sto cso o v :
  read_head kv = mkHead (Some name) ot sto cso -> match ot with Some t => req_int0 t | None => Ok OT_VAR end = Ok o ->
  o = OT_VAR \/ o = OT_DOMAIN -> build_variable D kv nid index 0 = Ok v ->
  import_index D kv nid index od = Ok (add_object (OVar v) od).
Proof.
  intros H1 H2 H3 H4. unfold import_index. rewrite H1. cbn [h_name h_objtype req rbind]. rewrite H2. cbn [rbind].
  replace ((o =? OT_VAR) || (o =? OT_DOMAIN)) with true by lia. rewrite H4. reflexivity.
Qed.

Lemma import_index_cont D kv nid index od k name ot sto :
  read_head kv = mkHead (Some name) (Some ot) sto None -> req_int0 ot = Ok (match k with KArr => OT_ARR | KRec => OT_RECORD end) ->
  import_index D kv nid index od = Ok (add_object (OCont (mkCont k name index sto [] [])) od).
Proof.
  intros H1 H2. unfold import_index. rewrite H1. cbn [h_name h_objtype h_storage h_compact req rbind]. rewrite H2.
  destruct k; reflexivity.
Qed.

Lemma import_var_object D nid rest od index lo ot domain v :
  0 <= index < 65536 -> wf_vdesc nid v ->
  import_sections D nid (write_obj (DVar index lo ot domain v) ++ rest) od =
  import_sections D nid rest (add_object (described_obj nid (DVar index lo ot domain v)) od).
Proof.
  intros Hi Hv. cbn [write_obj app import_sections]. rewrite import_index_section by exact Hi.
  rewrite import_index_var with (name := d_name v) (ot := option_map (fun sp => spell sp (if domain then 2 else 7)) ot)
      (sto := d_storage v) (cso := None) (v := described_var nid index 0 (d_name v) v)
      (o := match ot with Some _ => if domain then OT_DOMAIN else OT_VAR | None => OT_VAR end);
    [reflexivity|apply read_head_kvs_of; reflexivity| | |].
  - destruct ot; [apply req_int0_spell|reflexivity].
  - destruct ot, domain; auto.
  - apply import_written_var, Hv.
Qed.

Definition member_section (lo cap lowsub : bool) (index : Z) (m : vdesc) : section :=
  (member_name lo cap lowsub index (d_sub m), kvs_of ((k_PName, Some (d_name m)) :: var_keys m)).

Definition member_ok (nid : option Z) (m : vdesc) : Prop := wf_vdesc nid m /\ 0 <= d_sub m < 256.

Lemma import_members D nid index lo cap lowsub : 0 <= index < 65536 -> forall ms rest c od0,
  c_index c = index -> Forall (member_ok nid) ms ->
  import_sections D nid (map (member_section lo cap lowsub index) ms ++ rest) (add_object (OCont c) od0) =
  import_sections D nid rest
    (add_object (OCont (fold_left (fun c v => add_member v c)
                          (map (fun m => described_var nid index (d_sub m) (d_name m) m) ms) c)) od0).
Proof.
  intros Hi. induction ms as [|m r IH]; intros rest c od0 Hc Hm; [reflexivity|].
  inversion Hm as [|? ? [Hw Hs] Hr]; subst.
  cbn [map app import_sections]. unfold member_section at 1. rewrite import_member_section by assumption.
  (* a member section has no ObjectType entry *)
  rewrite import_sub_added with (v := described_var nid (c_index c) (d_sub m) (d_name m) m)
    by exact (import_written_var D nid _ _ _ None m Hw).
  apply IH; [reflexivity|exact Hr].
Qed.

Lemma import_cont_object D nid rest od k index lo name storage ot_sp cap lowsub members :
  0 <= index < 65536 -> Forall (member_ok nid) members ->
  import_sections D nid (write_obj (DCont k index lo name storage ot_sp cap lowsub members) ++ rest) od =
  import_sections D nid rest (add_object (described_obj nid (DCont k index lo name storage ot_sp cap lowsub members)) od).
Proof.
  intros Hi Hm. cbn [write_obj]. rewrite <- app_comm_cons. cbn [import_sections].
  rewrite import_index_section by exact Hi.
  rewrite import_index_cont with (k := k) (name := name) (sto := storage) (ot := spell ot_sp (match k with KArr => 8 | KRec => 9 end))
    by ((apply read_head_kvs_of; reflexivity) || (destruct k; apply req_int0_spell)).
  exact (import_members D nid index lo cap lowsub Hi members rest (mkCont k name index storage [] []) od eq_refl Hm).
Qed.

(* build_variable only looks at its twelve keys: an extra CompactSubObj entry does not matter *)
Lemma build_variable_compact D es o nid index sub :
  build_variable D (kvs_of (es ++ [(s "CompactSubObj", o)])) nid index sub = build_variable D (kvs_of es) nid index sub.
Proof.
  unfold build_variable. rewrite !read_var_keys. f_equal. f_equal. apply map_ext_in. intros k Hk.
  apply opt_get_kvs_snoc, negb_true_iff. revert k Hk. apply forallb_forall. reflexivity.
Qed.

Lemma read_head_compact name ot cso (v : vdesc) :
  read_head (kvs_of ((k_PName, Some name) :: (s "ObjectType", ot) :: var_keys v ++ [(s "CompactSubObj", Some cso)]))
  = mkHead (Some name) ot (d_storage v) (Some cso).
Proof. apply read_head_kvs_of. reflexivity. Qed.

Lemma dec_inj a b : dec a = dec b -> a = b.
Proof. intros H. pose proof (int10_dec a) as A. rewrite H, int10_dec in A. congruence. Qed.
Lemma streq_dec a b : streq (dec a) (dec b) = (a =? b).
Proof.
  destruct (a =? b) eqn:E.
  - replace b with a by lia. apply streq_refl.
  - apply list_Z_eqb_neq. intros H. apply dec_inj in H. lia.
Qed.

Fixpoint names_sorted (lo hi : Z) (l : list (Z * str)) : Prop :=
  match l with [] => True | (k, _) :: r => lo <= k < hi /\ names_sorted (k + 1) hi r end.

Lemma zassoc_below k l : forall lo hi, names_sorted lo hi l -> k < lo -> zassoc k l = None.
Proof.
  induction l as [|[j nm] r IH]; intros lo hi H Hk; [reflexivity|]. destruct H as (Hj & Hr).
  cbn [zassoc]. replace (k =? j) with false by lia. apply (IH (j + 1) hi Hr). lia.
Qed.

(* the name list of a compact array: the entry of sub-index k is found under the key str(k) *)
Lemma names_lookup hk hv l k : int10 hk = None ->
  opt_get ((hk, hv) :: map (fun p : Z * str => (dec (fst p), snd p)) l) (dec k) = zassoc k l.
Proof.
  intros H. unfold opt_get. cbn [sassoc].
  replace (streq (dec k) hk) with false
    by (symmetry; apply list_Z_eqb_neq; intros E; rewrite <- E, int10_dec in H; discriminate).
  induction l as [|[j nm] r IH]; [reflexivity|]. cbn [map sassoc zassoc fst snd]. rewrite streq_dec, IH. reflexivity.
Qed.

Definition filled (c0 : container) (vars : list odvar) : container := fold_left (fun c v => add_member v c) vars c0.
Lemma filled_keeps vars : forall c0,
  c_kind (filled c0 vars) = c_kind c0 /\ c_name (filled c0 vars) = c_name c0 /\
  c_index (filled c0 vars) = c_index c0 /\ c_storage (filled c0 vars) = c_storage c0.
Proof. induction vars as [|v r IH]; intros c0; [repeat split|]. apply (IH (add_member v c0)). Qed.

Definition copied (src : odvar) (sub : Z) (name : str) : odvar :=
  mkVar name (v_index src) sub (v_dt src) (v_access src) (v_pdo src) (v_default src)
        (v_min src) (v_max src) (v_value src) (v_default_raw src) (v_value_raw src)
        (v_relative src) (v_storage src) (v_factor src) (v_unit src) (v_descr src).

(* counting the sub-indices up and looking each one up visits a sorted name list in its order *)
Lemma copy_names_sorted kv src : forall cnt lo l c,
  (forall k, lo <= k -> opt_get kv (dec k) = zassoc k l) -> names_sorted lo (lo + Z.of_nat cnt) l ->
  copy_names kv src cnt lo c = filled c (map (fun p : Z * str => copied src (fst p) (snd p)) l).
Proof.
  induction cnt as [|cnt IH]; intros lo l c Hkv Hl.
  - destruct l as [|[k nm] r]; [reflexivity|]. cbn in Hl. lia.
  - cbn [copy_names]. rewrite Hkv by lia. fold (copied src lo).
    replace (lo + Z.of_nat (S cnt)) with (lo + 1 + Z.of_nat cnt) in Hl by lia.
    destruct l as [|[k nm] r]; [apply (IH (lo + 1) []); [intros; apply Hkv; lia|exact I]|].
    destruct Hl as (Hk & Hr). cbn [zassoc]. destruct (lo =? k) eqn:E.
    + assert (k = lo) by lia. subst k. cbn [map fold_left fst snd]. apply IH; [|exact Hr].
      intros j Hj. rewrite Hkv by lia. cbn [zassoc]. replace (j =? lo) with false by lia. reflexivity.
    + rewrite (zassoc_below lo r _ _ Hr) by lia. apply IH; [intros; apply Hkv; lia|]. split; [lia|exact Hr].
Qed.

Definition names_ok (n : Z) (names : option (list (Z * str))) : Prop :=
  match names with None => True | Some l => names_sorted 1 (1 + Z.of_nat (Z.to_nat n)) l end.

Lemma import_compact_object D nid rest od index lo ot_sp v n names :
  0 <= index < 65536 -> wf_vdesc nid v -> names_ok n names ->
  import_sections D nid (write_obj (DCompact index lo ot_sp v n names) ++ rest) od =
  import_sections D nid rest (add_object (described_obj nid (DCompact index lo ot_sp v n names)) od).
Proof.
  intros Hi Hv Hn. cbn [write_obj]. rewrite <- app_comm_cons. cbn [import_sections].
  rewrite import_index_section by exact Hi. unfold import_index. rewrite read_head_compact.
  cbn [h_name h_objtype h_storage h_compact req rbind]. rewrite req_int0_spell. cbn [rbind].
  change ((8 =? OT_VAR) || (8 =? OT_DOMAIN)) with false. change (8 =? OT_ARR) with true. cbn iota.
  rewrite !app_comm_cons, build_variable_compact, import_written_var by exact Hv. cbn [rbind].
  set (src := described_var nid index 1 (d_name v) v).
  set (c1 := add_member src (add_member (number_of_entries index) (mkCont KArr (d_name v) index None [] []))).
  destruct names as [l|]; [|reflexivity].
  cbn [app import_sections]. rewrite import_name_section by exact Hi. unfold import_names.
  change (req_get ((s "NrOfEntries", dec n) :: map (fun p : Z * str => (dec (fst p), snd p)) l) (s "NrOfEntries")) with (Ok (A := str) (dec n)).
  cbn [rbind]. unfold req_int10. rewrite int10_dec. cbn [rbind].
  set (o1 := OCont (mkCont KArr (d_name v) index (d_storage v) (c_subs c1) (c_names c1))).
  change index with (obj_index o1) at 1. rewrite od_get_added. cbn [rbind snd fst].
  change (obj_get o1 (KI 1)) with (Ok (A := odvar) src). cbn [rbind]. unfold o1 at 1.
  rewrite (copy_names_sorted _ src (Z.to_nat n) 1 l) by (exact Hn || (intros; apply names_lookup; reflexivity)).
  rewrite set_heap_added by (cbn [obj_index obj_name]; apply filled_keeps). reflexivity.
Qed.

Definition odesc_ok (nid : option Z) (o : odesc) : Prop :=
  match o with
  | DVar i _ _ _ v => 0 <= i < 65536 /\ wf_vdesc nid v
  | DCont _ i _ _ _ _ _ _ ms => 0 <= i < 65536 /\ Forall (member_ok nid) ms
  | DCompact i _ _ v n names => 0 <= i < 65536 /\ wf_vdesc nid v /\ names_ok n names
  end.

Lemma import_object D nid o rest od : odesc_ok nid o ->
  import_sections D nid (write_obj o ++ rest) od = import_sections D nid rest (add_object (described_obj nid o) od).
Proof.
  destruct o; cbn [odesc_ok].
  - intros (H1 & H2). apply import_var_object; assumption.
  - intros (H1 & H2). apply import_cont_object; assumption.
  - intros (H1 & H2 & H3). apply import_compact_object; assumption.
Qed.

Lemma import_objects D nid objs : Forall (odesc_ok nid) objs -> forall rest od,
  import_sections D nid (flat_map write_obj objs ++ rest) od =
  import_sections D nid rest (fold_left (fun od o => add_object (described_obj nid o) od) objs od).
Proof.
  induction 1 as [|o r Ho Hr IH]; intros rest od; [reflexivity|].
  cbn [flat_map fold_left]. rewrite <- app_assoc, import_object by exact Ho. apply IH.
Qed.

Lemma import_sections_app D nid a b od :
  import_sections D nid (a ++ b) od = rbind (import_sections D nid a od) (import_sections D nid b).
Proof.
  revert od. induction a as [|x r IH]; intros od; [reflexivity|].
  cbn [app import_sections]. destruct (import_section D nid x od); cbn [rbind]; [apply IH|reflexivity|reflexivity].
Qed.

Lemma import_fixed_parts D nid od :
  (forall b, import_sections D nid (head_fileinfo b) od = Ok od) /\
  (forall b o, import_sections D nid (pick b (head_devinfo o)) od = Ok od) /\
  (forall b o, import_sections D nid (pick b (head_commissioning o)) od = Ok od) /\
  (forall b, import_sections D nid (head_dummy b) od = Ok od) /\
  (forall b o, import_sections D nid (pick b (head_comments o)) od = Ok od).
Proof.
  split; [intros [|]; reflexivity|]. split; [|split; [|split]].
  - intros [|] [pb|]; reflexivity.
  - intros [|] [c|]; reflexivity.
  - intros [|]; vm_compute; reflexivity.
  - intros [|] [c|]; reflexivity.
Qed.

Lemma import_head D nid d od : import_sections D nid (write_head d) od = Ok od.
Proof.
  unfold write_head. destruct (import_fixed_parts D nid od) as (A & B & C & Dm & E).
  rewrite import_sections_app, A. cbn [rbind]. rewrite import_sections_app, B. cbn [rbind].
  rewrite import_sections_app, C. cbn [rbind]. rewrite import_sections_app, Dm. cbn [rbind]. apply E.
Qed.

(* the fixed sections may also follow the objects: sections are looked up by name, not by position *)
Lemma import_tail D nid d od : import_sections D nid (write_tail d) od = Ok od.
Proof.
  unfold write_tail. destruct (import_fixed_parts D nid od) as (_ & B & C & _ & E).
  rewrite import_sections_app, B. cbn [rbind]. rewrite import_sections_app, C. cbn [rbind]. apply E.
Qed.

Definition hex_prefixed (n : str) : Prop := forallb is_hex (firstn 4 n) = true.

Lemma hex_prefixed_app lo i rest : 0 <= i < 65536 -> hex_prefixed (sec_name lo i ++ rest).
Proof.
  intros H. destruct (index_name_facts lo i H) as (L & X & _).
  unfold hex_prefixed. rewrite (firstn_app_exact _ rest 4 L). exact X.
Qed.

Lemma write_obj_names nid o : odesc_ok nid o -> Forall (fun sec => hex_prefixed (fst sec)) (write_obj o).
Proof.
  destruct o as [i lo ot dom v|k i lo name sto ot_sp cap lowsub ms|i lo ot_sp v n names]; cbn [odesc_ok write_obj].
  - intros (H & _). constructor; [|constructor]. cbn [fst]. rewrite <- (app_nil_r (sec_name lo i)). apply hex_prefixed_app, H.
  - intros (H & _). constructor.
    + cbn [fst]. rewrite <- (app_nil_r (sec_name lo i)). apply hex_prefixed_app, H.
    + apply Forall_forall. intros sec Hs. apply in_map_iff in Hs as (m & <- & _). cbn [fst]. apply hex_prefixed_app, H.
  - intros (H & _). constructor.
    + cbn [fst]. rewrite <- (app_nil_r (sec_name lo i)). apply hex_prefixed_app, H.
    + destruct names; constructor; [|constructor]. cbn [fst]. apply hex_prefixed_app, H.
Qed.

(* object sections never carry one of the fixed names: theirs begin with the four hexadecimal digits of an index *)
Lemma objects_not_named nid k objs : forallb is_hex (firstn 4 k) = false -> Forall (odesc_ok nid) objs ->
  sassoc k (flat_map write_obj objs) = None.
Proof.
  intros Hk Ho.
  assert (G : Forall (fun sec : section => hex_prefixed (fst sec)) (flat_map write_obj objs)).
  { induction Ho as [|o r H1 H2 IH]; [constructor|]. cbn [flat_map]. apply Forall_app. split; [eapply write_obj_names; exact H1|exact IH]. }
  induction G as [|[n kv] r Hn Hr IH]; [reflexivity|].
  cbn [sassoc]. destruct (streq k n) eqn:E; [|exact IH].
  apply list_Z_eqb_eq in E. subst n. unfold hex_prefixed in Hn. cbn [fst] in Hn. congruence.
Qed.

Lemma line_key_not_lines i : streq (s "Line" ++ dec i) (s "Lines") = false.
Proof.
  destruct (streq (s "Line" ++ dec i) (s "Lines")) eqn:E; [|reflexivity].
  apply list_Z_eqb_eq in E. change (s "Lines") with (s "Line" ++ s "s") in E. apply app_inv_head in E.
  pose proof (int10_dec i) as H. rewrite E in H. discriminate.
Qed.
Lemma line_key_eq i j : streq (s "Line" ++ dec i) (s "Line" ++ dec j) = (i =? j).
Proof.
  destruct (i =? j) eqn:E.
  - replace j with i by lia. apply streq_refl.
  - destruct (streq (s "Line" ++ dec i) (s "Line" ++ dec j)) eqn:S; [|reflexivity].
    apply list_Z_eqb_eq in S. apply app_inv_head in S. apply dec_inj in S. lia.
Qed.
Lemma lines_lookup : forall L j p,
  sassoc (s "Line" ++ dec (j + Z.of_nat p)) (number_lines_from j L) = nth_error L p.
Proof.
  induction L as [|y r IH]; intros j p; [destruct p; reflexivity|].
  cbn [number_lines_from sassoc]. rewrite line_key_eq. destruct p as [|p].
  - replace (j + Z.of_nat 0 =? j) with true by lia. reflexivity.
  - replace (j + Z.of_nat (S p) =? j) with false by lia.
    replace (j + Z.of_nat (S p)) with (j + 1 + Z.of_nat p) by lia. apply IH.
Qed.

(* comment_lines asks for Line<j>, Line<j+1>, ...: if these keys hold the lines of L, it returns L *)
Lemma comment_lines_all kv : forall L j,
  (forall p, opt_get kv (s "Line" ++ dec (j + Z.of_nat p)) = nth_error L p) -> comment_lines kv (length L) j = Ok L.
Proof.
  induction L as [|x r IH]; intros j H; [reflexivity|]. cbn [length comment_lines]. unfold req_get.
  pose proof (H 0%nat) as H0. cbn [Z.of_nat] in H0. rewrite Z.add_0_r in H0. rewrite H0. cbn [nth_error rbind].
  rewrite IH; [reflexivity|]. intros p. replace (j + 1 + Z.of_nat p) with (j + Z.of_nat (S p)) by lia. apply (H (S p)).
Qed.

Lemma import_comments_kv D ls od : find_section D (s "Comments") = Some (comments_kv ls) ->
  import_comments D od = Ok (with_comments od (join_nl ls)).
Proof.
  intros H. unfold import_comments. rewrite H. unfold comments_kv.
  change (req_get ((s "Lines", dec (Z.of_nat (length ls))) :: number_lines_from 1 ls) (s "Lines"))
    with (Ok (A := str) (dec (Z.of_nat (length ls)))).
  cbn [rbind]. rewrite (req_int0_spell SpDec). cbn [rbind]. rewrite Nat2Z.id, comment_lines_all; [reflexivity|].
  intros p. unfold opt_get. cbn [sassoc]. rewrite line_key_not_lines. apply lines_lookup.
Qed.

Lemma two_keys k1 k2 (a b : option str) : streq k1 k2 = false ->
  opt_get (kvs_of [ (k1, a); (k2, b) ]) k1 = a /\ opt_get (kvs_of [ (k1, a); (k2, b) ]) k2 = b.
Proof.
  intros H. pose proof H as H'. rewrite streq_sym in H'.
  rewrite !opt_get_kvs_cons, !streq_refl, H, H'. destruct a, b; split; reflexivity.
Qed.

Lemma read_baudrate (r : option Z) :
  match option_map dec r with
  | None => Ok None
  | Some t => rbind (req_int10 t) (fun b => Ok (if b =? 0 then None else Some (b * 1000)))
  end = Ok (match r with Some r => if r =? 0 then None else Some (r * 1000) | None => None end).
Proof. destruct r; [|reflexivity]. cbn [option_map]. unfold req_int10. rewrite int10_dec. reflexivity. Qed.

Lemma read_node_id sp n :
  match Some (spell sp n) with
  | None => Ok None | Some [] => Ok None | Some t => rbind (req_int0 t) (fun n => Ok (Some n))
  end = Ok (Some n).
Proof.
  pose proof (req_int0_spell sp n) as I. destruct (spell sp n); [discriminate I|]. rewrite I. reflexivity.
Qed.

(* [DeviceComissioning] holding str(rate) and some spelling of the node id *)
Lemma import_commissioning_texts D nid od kv r nt :
  find_section D (s "DeviceComissioning") = Some kv ->
  opt_get kv (s "Baudrate") = option_map dec r ->
  opt_get kv (s "NodeID") = option_map (fun p : Z * spelling => spell (snd p) (fst p)) nt ->
  import_commissioning D nid od =
  Ok (with_commissioning od (match r with Some r => if r =? 0 then None else Some (r * 1000) | None => None end)
                            (match nid with Some n => Some n | None => option_map fst nt end),
      match nid with Some n => Some n | None => option_map fst nt end).
Proof.
  intros H K1 K2. unfold import_commissioning. rewrite H, K1, K2, read_baudrate. cbn [rbind].
  destruct nid as [m|]; [reflexivity|]. destruct nt as [[n sp]|]; [|reflexivity].
  cbn [option_map fst snd]. rewrite read_node_id. reflexivity.
Qed.

(* each fixed section is written at most once, before or after the objects, under its own name *)
Lemma sassoc_opt_part {A} k n (f : A -> list (str * str)) b o : streq k n = false ->
  sassoc k (pick b (match o with Some c => [(n, f c)] | None => [] end)) = None.
Proof. intros H. destruct b, o; cbn [pick sassoc]; rewrite ?H; reflexivity. Qed.
Lemma sassoc_flag_part k n (x : list (str * str)) (b : bool) : streq k n = false ->
  sassoc k (if b then [(n, x)] else []) = None.
Proof. intros H. destruct b; cbn [sassoc]; rewrite ?H; reflexivity. Qed.

Lemma find_fixed_sections nid d : Forall (odesc_ok nid) (dd_objects d) ->
  find_section (write d) (s "Comments") = option_map comments_kv (dd_comments d) /\
  find_section (write d) (s "DeviceComissioning") = option_map commissioning_kv (dd_commissioning d) /\
  (dd_devinfo d = None -> find_section (write d) (s "DeviceInfo") = None).
Proof.
  intros Ho.
  (* under a name of none of the other sections, only the three optional parts are searched *)
  assert (W : forall k, forallb is_hex (firstn 4 k) = false -> streq k (s "FileInfo") = false -> streq k (s "DummyUsage") = false ->
            find_section (write d) k =
            sassoc k ((pick (negb (tail_di d)) (head_devinfo (dd_devinfo d)) ++ pick (negb (tail_co d)) (head_commissioning (dd_commissioning d)) ++
                       pick (negb (tail_cm d)) (head_comments (dd_comments d))) ++ write_tail d)).
  { intros k H1 H2 H3. unfold find_section, write, write_head, head_fileinfo, head_dummy.
    rewrite !(sassoc_app_str (A := list (str * str))), (objects_not_named nid), !sassoc_flag_part by assumption. reflexivity. }
  split; [|split; [|intros Hdi]]; rewrite W by reflexivity; unfold write_tail; rewrite !(sassoc_app_str (A := list (str * str))).
  - unfold head_devinfo, head_commissioning. rewrite !sassoc_opt_part by reflexivity.
    destruct (tail_cm d), (dd_comments d); reflexivity.
  - unfold head_devinfo, head_comments. rewrite !sassoc_opt_part by reflexivity.
    destruct (tail_co d), (dd_commissioning d); reflexivity.
  - unfold head_commissioning, head_comments. rewrite !sassoc_opt_part, Hdi by reflexivity.
    destruct (tail_di d); reflexivity.
Qed.

Lemma fold_left_map {A B C} (f : A -> B -> A) (g : C -> B) l a :
  fold_left f (map g l) a = fold_left (fun x c => f x (g c)) l a.
Proof. revert a. induction l as [|x r IH]; intros a; [reflexivity|]. cbn. apply IH. Qed.

(* C08, whole document (partial: descriptions without a [DeviceInfo] section; the written document has no
   duplicate section or key) *)
Theorem import_of_written_partial d nid :
  dd_devinfo d = None -> Forall (odesc_ok (node_id_in_force d nid)) (dd_objects d) -> doc_ok (write d) = true ->
  import_ini (write d) nid = Ok (described d nid).
Proof.
  intros Hdi Ho Hok. unfold import_ini. rewrite Hok. cbn [negb].
  set (eff := node_id_in_force d nid) in *. destruct (find_fixed_sections eff d Ho) as (Fcm & Fco & Fdi).
  assert (Cm : import_comments (write d) empty_od =
               Ok (with_comments empty_od (match dd_comments d with Some ls => join_nl ls | None => [] end))).
  { destruct (dd_comments d) as [ls|]; [apply import_comments_kv, Fcm|]. unfold import_comments. rewrite Fcm. reflexivity. }
  rewrite Cm. cbn [rbind]. unfold import_devinfo. rewrite (Fdi Hdi). cbn [rbind].
  assert (Co : forall od, import_commissioning (write d) nid od =
               Ok (match dd_commissioning d with
                   | Some c => with_commissioning od
                                 (match snd c with Some r => if r =? 0 then None else Some (r * 1000) | None => None end) eff
                   | None => od end, eff)).
  { intros od. unfold eff, node_id_in_force. destruct (dd_commissioning d) as [c|].
    - destruct (two_keys (s "NodeID") (s "Baudrate") (option_map (fun p : Z * spelling => spell (snd p) (fst p)) (fst c))
                  (option_map dec (snd c)) eq_refl) as (K1 & K2).
      rewrite (import_commissioning_texts _ _ _ _ (snd c) (fst c) Fco K2 K1).
      destruct c as [[[n sp]|] [r|]], nid; reflexivity.
    - unfold import_commissioning. rewrite Fco. destruct nid; reflexivity. }
  rewrite Co. cbn [rbind fst snd].
  unfold write at 2. rewrite import_sections_app, import_head. cbn [rbind].
  rewrite import_objects by exact Ho. rewrite import_tail.
  f_equal. unfold described, described_devinfo. fold eff. rewrite Hdi.
  unfold build_od. rewrite fold_left_map. f_equal.
  destruct (dd_commissioning d) as [[? [?|]]|]; reflexivity.
Qed.

Definition built (objs : list odobj) (base : odict) : odict := fold_left (fun od o => add_object o od) objs base.
Definition blank (base : odict) : Prop := od_heap base = [] /\ od_indices base = [] /\ od_names base = [].

(* A table filled by a run of writes, each under the key of its item: a key none of them has keeps its
   entry, and under a key the last write counts.  The dictionary's two tables and a container's two
   tables are filled so, by add_object and add_member. *)
Section Writes.
  Context {S X K A : Type} (eqb : K -> K -> bool) (eqb_eq : forall a b, eqb a b = true <-> a = b).
  Context (get : K -> S -> option A) (key : X -> K) (val : S -> X -> A) (step : S -> X -> S).
  Context (get_step : forall k s x, get k (step s x) = if eqb k (key x) then Some (val s x) else get k s).

  Lemma writes_frame xs : forall s k, ~ In k (map key xs) -> get k (fold_left step xs s) = get k s.
  Proof.
    induction xs as [|x r IH]; intros s k H; [reflexivity|]. cbn [map In] in H.
    cbn [fold_left]. rewrite IH, get_step by tauto.
    destruct (eqb k (key x)) eqn:E; [|reflexivity]. apply eqb_eq in E. destruct H. left. symmetry. exact E.
  Qed.

  Lemma writes_last a x b s : ~ In (key x) (map key b) ->
    get (key x) (fold_left step (a ++ x :: b) s) = Some (val (fold_left step a s) x).
  Proof.
    intros H. rewrite fold_left_app. cbn [fold_left]. rewrite writes_frame, get_step by exact H.
    rewrite (proj2 (eqb_eq _ _) eq_refl). reflexivity.
  Qed.
End Writes.

Lemma built_heap objs : forall base, od_heap (built objs base) = od_heap base ++ objs.
Proof.
  induction objs as [|o r IH]; intros base; [symmetry; apply app_nil_r|].
  change (built (o :: r) base) with (built r (add_object o base)). rewrite IH. symmetry. apply (app_assoc _ [o]).
Qed.

Lemma built_other_name objs base k : ~ In k (map obj_name objs) ->
  sassoc k (od_names (built objs base)) = sassoc k (od_names base).
Proof.
  exact (writes_frame streq list_Z_eqb_eq (fun k od => sassoc k (od_names od)) _ _ (fun od o => add_object o od)
           (fun k od o => sassoc_sset k _ _ _) objs base k).
Qed.

(* an object with an index and a name of its own is found under both at its position *)
Lemma built_tables objs : NoDup (map obj_index objs) -> NoDup (map obj_name objs) ->
  forall base p o, nth_error objs p = Some o ->
  zassoc (obj_index o) (od_indices (built objs base)) = Some (length (od_heap base) + p)%nat /\
  sassoc (obj_name o) (od_names (built objs base)) = Some (length (od_heap base) + p)%nat.
Proof.
  intros Hi Hn base p o Hp. apply nth_error_split in Hp as (a & b & -> & <-).
  rewrite map_app in Hi, Hn. apply NoDup_remove_2 in Hi, Hn. rewrite in_app_iff in Hi, Hn.
  rewrite <- app_length, <- built_heap. split.
  - apply (writes_last Z.eqb Z.eqb_eq (fun i od => zassoc i (od_indices od)) _ _ (fun od o => add_object o od)
             (fun i od o => zassoc_zset i _ _ _)). tauto.
  - apply (writes_last streq list_Z_eqb_eq (fun k od => sassoc k (od_names od)) _ _ (fun od o => add_object o od)
             (fun k od o => sassoc_sset k _ _ _)). tauto.
Qed.

(* the same for the members of a container *)
Lemma filled_tables vars : NoDup (map v_sub vars) -> NoDup (map v_name vars) -> forall c0 v, In v vars ->
  zassoc (v_sub v) (c_subs (filled c0 vars)) = Some v /\ sassoc (v_name v) (c_names (filled c0 vars)) = Some v.
Proof.
  intros Hs Hn c0 v Hv. apply in_split in Hv as (a & b & ->).
  rewrite map_app in Hs, Hn. apply NoDup_remove_2 in Hs, Hn. rewrite in_app_iff in Hs, Hn. split.
  - apply (writes_last Z.eqb Z.eqb_eq (fun j c => zassoc j (c_subs c)) _ _ (fun c v => add_member v c)
             (fun j c v => zassoc_zset j _ _ _)). tauto.
  - apply (writes_last streq list_Z_eqb_eq (fun k c => sassoc k (c_names c)) _ _ (fun c v => add_member v c)
             (fun k c v => sassoc_sset k _ _ _)). tauto.
Qed.

Definition no_dot (t : str) : Prop := Forall (fun c => c <> 46) t.
Lemma split_dot_app a b : no_dot a -> split_dot (a ++ 46 :: b) = Some (a, b).
Proof.
  induction 1 as [|c r Hc Hr IH]; [reflexivity|]. cbn [app split_dot].
  replace (c =? 46) with false by lia. rewrite IH. reflexivity.
Qed.

(* C08 lookup_consistent: by index, by name and by 'Parent.Child' the same object is reached *)
Theorem lookup_consistent base objs : blank base ->
  NoDup (map obj_index objs) -> NoDup (map obj_name objs) ->
  forall p o, nth_error objs p = Some o ->
  od_get_int (built objs base) (obj_index o) = Ok (p, o) /\
  od_get (built objs base) (KI (obj_index o)) = Ok (LObj p o) /\
  (obj_truthy o = true -> od_get (built objs base) (KS (obj_name o)) = Ok (LObj p o)) /\
  (forall c0 vars v, o = OCont (filled c0 vars) -> c_subs c0 = [] -> c_names c0 = [] ->
     NoDup (map v_sub vars) -> NoDup (map v_name vars) -> In v vars ->
     obj_get o (KI (v_sub v)) = Ok v /\ obj_get o (KS (v_name v)) = Ok v /\
     (Forall (fun o => no_dot (obj_name o)) objs ->
      od_get (built objs base) (KS (obj_name o ++ 46 :: v_name v)) = Ok (LVar p v))).
Proof.
  intros (B1 & B2 & B3) Hi Hn p o Hp. pose proof (built_heap objs base) as T1.
  destruct (built_tables objs Hi Hn base p o Hp) as (Z1 & S1). rewrite B1 in T1, Z1, S1. cbn in T1, Z1, S1.
  assert (G : od_get_int (built objs base) (obj_index o) = Ok (p, o)).
  { unfold od_get_int. rewrite Z1, T1, Hp. reflexivity. }
  assert (NG : obj_truthy o = true -> names_get (built objs base) (obj_name o) = Some (p, o)).
  { intros Ht. unfold names_get. rewrite S1, T1, Hp, Ht. reflexivity. }
  split; [exact G|]. split; [cbn [od_get]; rewrite G; reflexivity|]. split.
  - intros Ht. cbn [od_get]. rewrite (NG Ht). reflexivity.
  - intros c0 vars v E _ _ Vs Vn Hv. destruct (filled_tables vars Vs Vn c0 v Hv) as (A1 & A2).
    assert (GS : obj_get o (KS (v_name v)) = Ok v) by (rewrite E; cbn [obj_get]; unfold cont_get_str; rewrite A2; reflexivity).
    split; [rewrite E; cbn [obj_get]; unfold cont_get_int; rewrite A1; reflexivity|]. split; [exact GS|].
    intros Hd. cbn [od_get]. rewrite Forall_forall in Hd.
    assert (Miss : names_get (built objs base) (obj_name o ++ 46 :: v_name v) = None).
    { unfold names_get. rewrite built_other_name, B3; [reflexivity|]. intros Hin. apply in_map_iff in Hin as (o2 & E2 & Ho2).
      specialize (Hd o2 Ho2). rewrite E2 in Hd. unfold no_dot in Hd. rewrite Forall_forall in Hd.
      apply (Hd 46); [apply in_or_app; right; left; reflexivity|reflexivity]. }
    rewrite Miss, split_dot_app by apply (Hd _ (nth_error_In _ _ Hp)).
    (* a container with a member is truthy *)
    rewrite NG by (rewrite E; cbn [obj_truthy]; destruct (c_subs (filled c0 vars)); [discriminate A1|reflexivity]).
    cbn [snd fst rbind]. rewrite GS. reflexivity.
Qed.

(* reimported with the texts export writes for the two values; the last branch only makes the function total, a
   well-formed variable has both texts (value_text_roundtrip) *)
Definition reimported' (dcf : bool) (v : odvar) : odvar :=
  match value_text (v_dt v) (v_default_raw v) (v_default v), value_text (v_dt v) (v_value_raw v) (v_value v) with
  | Some dv, Some pv => reimported dcf v dv pv
  | _, _ => v
  end.

Lemma export_import_var' D dcf top nid v : wf_var nid v ->
  exists kv, export_variable dcf top v = Some (var_section_name top v, kv) /\
             build_variable D kv nid (v_index v) (v_sub v) = Ok (reimported' dcf v) /\
             (top = true -> read_head kv = mkHead (Some (v_name v)) (Some (s "0x7")) (v_storage v) None).
Proof.
  intros H. destruct (export_import_var D dcf top nid v H) as (dv & pv & Ed & Ev & E & B).
  exists (kvs_of (var_entries dcf v dv pv)). split; [exact E|]. split.
  - rewrite B. unfold reimported'. rewrite Ed, Ev. reflexivity.
  - intros _. rewrite <- (storage_back _ (wv_storage _ _ H)). apply read_head_kvs_of. reflexivity.
Qed.

Lemma zinsert_In {A} k (a : A) l p : In p (zinsert k a l) <-> p = (k, a) \/ In p l.
Proof.
  induction l as [|[k' a'] r IH]; cbn [zinsert]; [cbn; intuition|].
  destruct (k <=? k'); cbn [In]; [intuition|]. rewrite IH. intuition.
Qed.
Lemma zsort_In {A} (l : list (Z * A)) p : In p (zsort l) <-> In p l.
Proof.
  unfold zsort. induction l as [|[k a] r IH]; cbn [fold_right]; [reflexivity|].
  cbn [fst snd]. rewrite zinsert_In, IH. cbn [In]. intuition.
Qed.

Definition member_wf (nid : option Z) (index : Z) (v : odvar) : Prop :=
  wf_var nid v /\ v_index v = index /\ 0 <= v_sub v < 256.

Definition wf_obj (nid : option Z) (o : odobj) : Prop :=
  match o with
  | OVar v => wf_var nid v /\ 0 <= v_index v < 65536 /\ v_sub v = 0
  | OCont c => 0 <= c_index c < 65536 /\ c_storage c <> Some [] /\
               Forall (fun p => member_wf nid (c_index c) (snd p)) (c_subs c)
  end.

(* a container built member by member in code is well formed when its members are *)
Lemma filled_members (P : odvar -> Prop) vars : Forall P vars -> forall c0,
  Forall (fun p => P (snd p)) (c_subs c0) -> Forall (fun p => P (snd p)) (c_subs (filled c0 vars)).
Proof.
  induction 1 as [|v r Hv Hr IH]; intros c0 H0; [exact H0|]. apply (IH (add_member v c0)).
  cbn [add_member c_subs]. apply Forall_app. split; [|constructor; [exact Hv|constructor]].
  apply (incl_Forall (incl_filter _ _) H0).
Qed.

Lemma build_cont_wf nid k name index sto vars : 0 <= index < 65536 -> sto <> Some [] ->
  Forall (member_wf nid index) vars -> wf_obj nid (build_cont k name index sto vars).
Proof.
  intros Hi Hs Hm. unfold build_cont. fold (filled (mkCont k name index sto [] []) vars). cbn [wf_obj].
  destruct (filled_keeps vars (mkCont k name index sto [] [])) as (_ & _ & -> & ->).
  split; [exact Hi|]. split; [exact Hs|]. apply filled_members; [exact Hm|constructor].
Qed.

Definition reimported_obj (dcf : bool) (o : odobj) : odobj :=
  match o with
  | OVar v => OVar (reimported' dcf v)
  | OCont c => OCont (filled (mkCont (c_kind c) (c_name c) (c_index c) (c_storage c) [] [])
                             (map (fun p => reimported' dcf (snd p)) (zsort (c_subs c))))
  end.

Lemma export_import_members D dcf nid index : 0 <= index < 65536 -> forall vars rest c od0,
  c_index c = index -> Forall (member_wf nid index) vars ->
  exists secs, opt_all (map (export_variable dcf false) vars) = Some secs /\
    import_sections D nid (secs ++ rest) (add_object (OCont c) od0) =
    import_sections D nid rest (add_object (OCont (filled c (map (reimported' dcf) vars))) od0).
Proof.
  intros Hi. induction vars as [|v r IH]; intros rest c od0 Hc Hm.
  - exists []. split; reflexivity.
  - inversion Hm as [|? ? (Hw & Hx & Hs) Hr]; subst.
    destruct (export_import_var' D dcf false nid v Hw) as (kv & E & B & _).
    destruct (IH rest (add_member (reimported' dcf v) c) od0 eq_refl Hr) as (secs & Es & Is).
    exists ((var_section_name false v, kv) :: secs). split; [cbn [map opt_all]; rewrite E, Es; reflexivity|].
    cbn [app import_sections].
    change (var_section_name false v) with (member_name false false false (v_index v) (v_sub v)).
    rewrite import_member_section by (lia || exact Hs). rewrite Hx in *.
    rewrite (import_sub_added _ _ _ _ _ _ _ B). exact Is.
Qed.

Lemma export_import_object D dcf nid o : wf_obj nid o ->
  exists secs, export_object dcf o = Some secs /\ forall rest od,
    import_sections D nid (secs ++ rest) od = import_sections D nid rest (add_object (reimported_obj dcf o) od).
Proof.
  destruct o as [v|c]; cbn [wf_obj].
  - intros (Hw & Hi & H0). destruct (export_import_var' D dcf true nid v Hw) as (kv & E & B & R).
    exists [(var_section_name true v, kv)]. split; [cbn [export_object]; rewrite E; reflexivity|].
    intros rest od. cbn [app import_sections].
    change (var_section_name true v) with (sec_name false (v_index v)). rewrite import_index_section by exact Hi.
    rewrite H0 in B. erewrite import_index_var by (apply (R eq_refl) || reflexivity || exact B || (left; reflexivity)).
    reflexivity.
  - intros (Hi & Hst & Hm).
    assert (Hm' : Forall (member_wf nid (c_index c)) (map snd (zsort (c_subs c)))).
    { apply Forall_forall. intros v Hv. apply in_map_iff in Hv as (p & <- & Hp). apply (proj1 (zsort_In _ _)) in Hp.
      rewrite Forall_forall in Hm. apply (Hm p Hp). }
    set (c0 := mkCont (c_kind c) (c_name c) (c_index c) (c_storage c) [] []).
    (* the sections have to be named before rest and od are given: export_import_members is asked for them once on an
       empty rest, and once more below for the import of the same sections in front of rest *)
    destruct (export_import_members D dcf nid (c_index c) Hi (map snd (zsort (c_subs c))) [] c0 empty_od eq_refl Hm') as (secs & Es & _).
    eexists. split; [cbn [export_object]; rewrite <- (map_map snd (export_variable dcf false)), Es; reflexivity|].
    intros rest od. cbn [app import_sections].
    change (fmt_X 4 (c_index c)) with (sec_name false (c_index c)). rewrite import_index_section by exact Hi.
    rewrite (storage_back _ Hst).
    rewrite import_index_cont with (k := c_kind c) (name := c_name c) (sto := c_storage c)
        (ot := match c_kind c with KRec => s "0x9" | KArr => s "0x8" end)
      by ((apply read_head_kvs_of; reflexivity) || (destruct (c_kind c); reflexivity)).
    cbn [rbind]. fold c0.
    destruct (export_import_members D dcf nid (c_index c) Hi (map snd (zsort (c_subs c))) rest c0 od eq_refl Hm') as (secs' & Es2 & Is).
    rewrite Es in Es2. injection Es2 as <-. rewrite Is. cbn [reimported_obj]. rewrite map_map. reflexivity.
Qed.

(* C14, object lists: the sections export_eds writes for a list of objects (export_list) are read back as those objects *)
Theorem export_import_objects_partial D dcf nid objs : Forall (wf_obj nid) objs ->
  exists secss, opt_all (map (export_object dcf) objs) = Some secss /\ forall rest od,
    import_sections D nid (concat secss ++ rest) od =
    import_sections D nid rest (fold_left (fun od o => add_object (reimported_obj dcf o) od) objs od).
Proof.
  induction 1 as [|o r Ho Hr IH].
  - exists []. split; [reflexivity|]. intros; reflexivity.
  - destruct (export_import_object D dcf nid o Ho) as (secs & E & I). destruct IH as (secss & Es & Is).
    exists (secs :: secss). split; [cbn [map opt_all]; rewrite E, Es; reflexivity|].
    intros rest od. cbn [concat fold_left]. rewrite <- app_assoc, I. apply Is.
Qed.

(* every attribute the property lists survives, member by member *)
Lemma reimported'_same dcf nid v : wf_var nid v -> same_attrs dcf v (reimported' dcf v).
Proof.
  intros H. destruct (export_import_var [] dcf true nid v H) as (dv & pv & Ed & Ev & _).
  unfold reimported'. rewrite Ed, Ev. unfold same_attrs, reimported. cbn. repeat split. intros ->. reflexivity.
Qed.

(* ... and container by container: kind, name, index, storage location are kept, the members are the re-imported members *)
Lemma reimported_obj_shape dcf o :
  match o, reimported_obj dcf o with
  | OVar v, OVar v' => v' = reimported' dcf v
  | OCont c, OCont c' =>
      c_kind c' = c_kind c /\ c_name c' = c_name c /\ c_index c' = c_index c /\ c_storage c' = c_storage c /\
      c' = filled (mkCont (c_kind c) (c_name c) (c_index c) (c_storage c) [] [])
                  (map (fun p => reimported' dcf (snd p)) (zsort (c_subs c)))
  | _, _ => False
  end.
Proof.
  destruct o as [v|c]; cbn [reimported_obj]; [reflexivity|].
  destruct (filled_keeps (map (fun p => reimported' dcf (snd p)) (zsort (c_subs c)))
              (mkCont (c_kind c) (c_name c) (c_index c) (c_storage c) [] [])) as (A & B & C & E).
  repeat split; assumption.
Qed.

(* DCF: bit rate and node id *)
Lemma export_import_commissioning D od nid :
  (match od_bitrate od with Some b => 0 <= b /\ b mod 1000 = 0 | None => True end) ->
  find_section D (s "DeviceComissioning") =
    Some (kvs_of [ (s "Baudrate", match od_bitrate od with Some b => if b =? 0 then None else Some (dec (b / 1000)) | None => None end);
                   (s "NodeID", match od_node_id od with Some n => if n =? 0 then None else Some (dec n) | None => None end) ]) ->
  exists od' eff, import_commissioning D nid empty_od = Ok (od', eff) /\
    od_bitrate od' = (match od_bitrate od with Some 0 => None | x => x end) /\
    (nid = None -> od_node_id od' = (match od_node_id od with Some 0 => None | x => x end)).
Proof.
  intros Hb Hf.
  set (r := match od_bitrate od with Some b => if b =? 0 then None else Some (b / 1000) | None => None end).
  set (nt := match od_node_id od with Some n => if n =? 0 then None else Some (n, SpDec) | None => None end).
  match type of Hf with context [kvs_of [ (_, ?a); (_, ?b) ]] =>
    destruct (two_keys (s "Baudrate") (s "NodeID") a b eq_refl) as (K1 & K2) end.
  eexists _, _. split.
  - apply (import_commissioning_texts D nid empty_od _ r nt Hf).
    + rewrite K1. unfold r. destruct (od_bitrate od) as [b|]; [destruct (b =? 0)|]; reflexivity.
    + rewrite K2. unfold nt. destruct (od_node_id od) as [n|]; [destruct (n =? 0)|]; reflexivity.
  - cbn [with_commissioning od_bitrate od_node_id]. split.
    + unfold r. destruct (od_bitrate od) as [b|]; [|reflexivity].
      destruct (b =? 0) eqn:E; [replace b with 0 by lia; reflexivity|].
      replace (b / 1000 =? 0) with false by (Z.div_mod_to_equations; lia).
      replace (b / 1000 * 1000) with b by (Z.div_mod_to_equations; lia). destruct b; [lia|reflexivity..].
    + intros ->. unfold nt. destruct (od_node_id od) as [n|]; [|reflexivity].
      destruct (n =? 0) eqn:E; [replace n with 0 by lia; reflexivity|]. destruct n; [lia|reflexivity..].
Qed.

(* C08: compact arrays are expanded (ODArray.__getitem__) *)
Theorem compact_expanded c t sub : c_kind c = KArr -> zassoc 1 (c_subs c) = Some t -> 0 < sub < 256 ->
  zassoc sub (c_subs c) = None ->
  exists v, cont_get_int c sub = Ok v /\ v_index v = c_index c /\ v_sub v = sub /\
    v_dt v = v_dt t /\ v_access v = v_access t /\ v_pdo v = v_pdo t /\ v_default v = v_default t /\
    v_min v = v_min t /\ v_max v = v_max t /\ v_storage v = v_storage t /\ v_factor v = v_factor t /\
    v_unit v = v_unit t /\ v_descr v = v_descr t.
Proof.
  intros Hk H1 Hs Hn. unfold cont_get_int. rewrite Hn, Hk. replace ((0 <? sub) && (sub <? 256)) with true by lia.
  unfold template_var. rewrite H1. eexists. split; [reflexivity|]. cbn. repeat split.
Qed.

(* what is described for a compact array, as a container filled member by member: the number of entries, sub-index 1,
   and under each named sub-index the same variable with that sub-index and name *)
Lemma described_compact_members nid index lo ot_sp v n names :
  described_obj nid (DCompact index lo ot_sp v n names) =
  OCont (filled (mkCont KArr (d_name v) index (d_storage v) [] [])
           (number_of_entries index :: described_var nid index 1 (d_name v) v ::
            match names with None => [] | Some l => map (fun p : Z * str => described_var nid index (fst p) (snd p) v) l end)).
Proof. reflexivity. Qed.

Lemma devinfo_table_ok : DEVINFO_IMPORT = DEVINFO_ROWS /\ BAUD_RATES = STD_RATES.
Proof. split; reflexivity. Qed.

(* whole numbers in REAL objects
   (var.default = -40 on a REAL32: written as str(int), read by float()) *)
Lemma take_digits_dec_u v : 0 <= v -> take_digits (dec_u v) = (dec_u v, []).
Proof.
  intros Hv. destruct (digits_spec 10 v ltac:(lia) Hv) as (_ & D & _). unfold dec_u.
  induction D as [|d r Hd Hr IH]; [reflexivity|]. cbn [map take_digits].
  replace ((48 <=? 48 + d) && (48 + d <=? 57)) with true by lia. rewrite IH. reflexivity.
Qed.

Lemma decval_dec_u v : 0 <= v -> decval (dec_u v) = v.
Proof.
  intros Hv. destruct (digits_spec 10 v ltac:(lia) Hv) as (P & _ & _). unfold decval, dec_u.
  assert (G : forall ds a, fold_left (fun a c => a * 10 + (c - 48)) (map (fun d => 48 + d) ds) a = pval 10 ds a).
  { induction ds as [|d r IH]; intros a; [reflexivity|]. cbn [map fold_left]. unfold pval. cbn [fold_left].
    replace (a * 10 + (48 + d - 48)) with (a * 10 + d) by lia. apply IH. }
  rewrite G. exact P.
Qed.

Lemma float_body_dec_u v : 0 <= v -> float_body (dec_u v) = Some (fnorm v 0).
Proof.
  intros Hv. unfold float_body. rewrite take_digits_dec_u by exact Hv. cbn iota beta.
  rewrite app_nil_r, decval_dec_u by exact Hv.
  destruct (dec_u v) eqn:E; [|reflexivity]. apply (spell_nat_alnum SpDec v Hv) in E. destruct E.
Qed.

Lemma float_parse_dec z :
  float_parse (dec z) = Some (if z <? 0 then (- fst (fnorm (- z) 0), snd (fnorm (- z) 0)) else fnorm z 0).
Proof.
  unfold float_parse, dec. destruct (z <? 0) eqn:E.
  - destruct (spell_nat_alnum SpDec (- z)) as (A & _); [lia|].
    rewrite (proj1 (sign_split _ _ _ A)), float_body_dec_u by lia. reflexivity.
  - destruct (spell_nat_alnum SpDec z) as (A & _); [lia|].
    rewrite (proj2 (sign_split _ _ _ A)). apply float_body_dec_u. lia.
Qed.

(* the normal form denotes the same number *)
Lemma norm10_value fuel : forall m e, 0 <= e -> let p := norm10 fuel m e in fst p * 10 ^ snd p = m * 10 ^ e /\ 0 <= snd p.
Proof.
  induction fuel as [|f IH]; intros m e He; cbn [norm10]; [split; [reflexivity|exact He]|].
  destruct (m =? 0) eqn:E0; [cbn; split; lia|].
  destruct (m mod 10 =? 0) eqn:E1; [|split; [reflexivity|exact He]].
  destruct (IH (m / 10) (e + 1) ltac:(lia)) as (A & B). cbn zeta in *. split; [|exact B].
  rewrite A. rewrite Z.pow_add_r by lia. change (10 ^ 1) with 10.
  assert (m = 10 * (m / 10)) by (rewrite (Z.div_mod m 10) at 1 by lia; lia). nia.
Qed.

Lemma fnorm_value z : fst (fnorm z 0) * 10 ^ snd (fnorm z 0) = z /\ 0 <= snd (fnorm z 0).
Proof.
  destruct (norm10_value (S (Z.to_nat (Z.log2 (Z.abs z)))) z 0) as (A & B); [lia|].
  split; [unfold fnorm; rewrite A; apply Z.mul_1_r|exact B].
Qed.

(* C14: a whole number held as a Python int by a REAL object survives export and import as that number *)
Theorem real_int_roundtrip nid dt z : is_bytes_type dt = false -> is_text_type dt = false -> zmem dt FLOAT_TYPES = true ->
  exists m e, revert_variable dt (PVInt z) = Some (dec z) /\
              convert_variable nid dt (dec z) = Some (PVFloat m e) /\ 0 <= e /\ m * 10 ^ e = z.
Proof.
  intros B T F. unfold revert_variable, convert_variable. rewrite B, T, F, float_parse_dec.
  destruct (z <? 0) eqn:E; [destruct (fnorm_value (- z)) as (A & Hb)|destruct (fnorm_value z) as (A & Hb)];
    eexists _, _; (split; [reflexivity|]); (split; [reflexivity|]); cbn [fst snd]; (split; [exact Hb|lia]).
Qed.

(* export_od: the destination does not decide the document type when one is given *)
Lemma export_type_explicit dest t : t = s "eds" \/ t = s "dcf" ->
  export_od_type dest (Some t) = Ok (Some (streq t (s "dcf"))).
Proof. intros [->| ->]; reflexivity. Qed.

Lemma export_type_from_name name : export_od_type (Some name) None = Ok (Some (ends_with (s ".dcf") name)).
Proof. unfold export_od_type. destruct (ends_with (s ".dcf") name); reflexivity. Qed.

(* data of the non-vacuity examples in Properties/ *)
Definition ex_var : vdesc :=   (* INTEGER24, limits as 24-bit two's complement, default -5 in hex *)
  mkVd (s "speed = 100%") 0 16 (SpHex false true 4) (s "RW") (Some (true, SpHex false false 0))
       (Some (DInt (-5) (SpHex true false 0))) None
       (Some (-8388608, LTwos false false 0)) (Some (8388607, LTwos false true 0))
       (Some (s "RAM")) (Some ((25, -2), s "2.5e-1")) (Some (s "mm")) None.
Definition ex_cob : vdesc :=   (* UNSIGNED32, $NODEID-relative default in both orders *)
  mkVd (s "COB-ID") 1 7 SpDec (s "rw") None (Some (DRel 384 (SpHex false false 0) true true))
       (Some (DRel 512 SpDec false false)) (Some (0, LPlain SpDec)) None None None None None.
Definition ex_n0 : vdesc :=
  mkVd (s "n") 0 5 (SpHex false false 4) (s "ro") None (Some (DInt 1 SpDec)) None None None None None None None.
Definition ex_doc : ddesc :=
  mkDd true None (Some (Some (5, SpHex false false 0), Some 250)) (Some [s "first"; s "second = line"])
       [ DVar 8192 true None false ex_var;
         DCont KRec 4608 false (s "Rec") (Some (s "ROM")) (SpHex false false 0) true true [ex_n0; ex_cob];
         DCompact 4099 false SpDec ex_var 4 (Some [(1, s "one"); (3, s "three")]) ]
       (false, true, true).

Lemma ex_var_wf nid : wf_vdesc nid ex_var.
Proof.
  constructor; cbn [ex_var d_dt d_default d_pvalue d_low d_high d_factor dvalue_ok limit_ok].
  - split; discriminate.
  - reflexivity.
  - exact I.
  - split; [discriminate|reflexivity].
  - split; [discriminate|reflexivity].
  - reflexivity.
Qed.

Lemma ex_cob_wf n : wf_vdesc (Some n) ex_cob.
Proof.
  constructor; cbn [ex_cob d_dt d_default d_pvalue d_low d_high d_factor dvalue_ok limit_ok].
  - split; discriminate.
  - split; [reflexivity|]. split; discriminate.
  - split; [reflexivity|]. split; discriminate.
  - exists SpDec. reflexivity.
  - exact I.
  - exact I.
Qed.

Lemma ex_n0_wf nid : wf_vdesc nid ex_n0.
Proof.
  constructor; cbn [ex_n0 d_dt d_default d_pvalue d_low d_high d_factor dvalue_ok limit_ok].
  - split; discriminate.
  - reflexivity.
  - exact I.
  - exact I.
  - exact I.
  - exact I.
Qed.

Definition ex_v (sub : Z) (dt : Z) (d : option pyv) (lo hi : option Z) : odvar :=
  mkVar (s "a % b = c") 8192 sub dt (s "rw") true d lo hi d None None false (Some (s "RAM")) (25, -2) (s "mm") (s "text").
Definition ex_rec : odobj :=
  build_cont KRec (s "Rec 1") 8192 (Some (s "ROM"))
    [ ex_v 2 16 (Some (PVInt (-8388608))) (Some (-8388608)) (Some 8388607);      (* INTEGER24 at its range ends *)
      ex_v 0 5 (Some (PVInt 2)) None None;
      ex_v 1 10 (Some (PVBytes [0; 171; 255])) None None;                        (* OCTET_STRING *)
      ex_v 3 8 (Some (PVFloat (-225) (-2))) None None ].                         (* REAL32 -2.25 *)

Lemma ex_v_wf nid sub dt d lo hi : 0 <= sub < 256 -> 0 <= dt <= 27 ->
  match d with Some x => value_ok dt x | None => True end ->
  match lo with Some z => zmem dt SIGNED_TYPES = true -> z < 2 ^ (signed_width dt - 1) | None => True end ->
  match hi with Some z => zmem dt SIGNED_TYPES = true -> z < 2 ^ (signed_width dt - 1) | None => True end ->
  member_wf nid 8192 (ex_v sub dt d lo hi).
Proof.
  intros Hs Hdt Hd Hlo Hhi. split; [|split; [reflexivity|exact Hs]].
  constructor; cbn [ex_v v_dt v_access v_storage v_default_raw v_default v_value_raw v_value v_min v_max v_factor raw_ok].
  - exact Hdt.
  - split; [discriminate|reflexivity].
  - discriminate.
  - exact Hd.
  - exact Hd.
  - intros z ->. exact Hlo.
  - intros z ->. exact Hhi.
  - right. vm_compute. reflexivity.
Qed.
