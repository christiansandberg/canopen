(* Proofs about Model/PdoCfg.v and Model/StrictDevice.v (C09).
   save_writes is six groups of writes: disable, parameters, clear the count, entries, set the count, enable.
   What the strict device does with a group, what the code sends for it and which registers it leaves are
   stated per group and composed. *)
From Coq Require Import ZArith List Bool Lia.
From CV Require Import Base.Val Base.Bytes Base.Bits Base.Tys Gen.PdoTables Model.StrictDevice Model.PdoCfg.
Import ListNotations.
Open Scope Z_scope.

Definition opt_fits (w : Z) (o : option Z) : bool :=
  match o with Some v => fits w v | None => true end.

Definition entry_wfb (e : entry) : bool :=
  let '(i, s, l) := e in
  (0 <? i) && (i <? 65536) && (0 <=? s) && (s <? 256) && (0 <? l) && (l <? 128).

(* forced by the code: anything else is either refused by encode_raw or does not survive read() *)
Definition cfg_wfb (c : cfg) : bool :=
  match c_cob c with Some cob => (0 <=? cob) && (cob <? 2 ^ 29) | None => false end &&
  opt_fits 8 (c_tt c) && opt_fits 16 (c_inhibit c) && opt_fits 16 (c_event c) && opt_fits 8 (c_sync c) &&
  forallb entry_wfb (c_map c) && (zlen (c_map c) <? 256).

(* the dictionary has every sub-entry that save() touches (otherwise KeyError) *)
Definition opt_has (od : oddesc) (k : Z) (o : option Z) : bool :=
  match o with Some _ => com_has od k | None => true end.

Definition od_coversb (od : oddesc) (c : cfg) : bool :=
  com_has od 1 && opt_has od 2 (c_tt c) && opt_has od 3 (c_inhibit c) && opt_has od 5 (c_event c) &&
  opt_has od 6 (c_sync c) && (zlen (c_map c) <=? o_nmap od).

Fixpoint map_total (m : list entry) : Z :=
  match m with [] => 0 | (_, _, l) :: t => l + map_total t end.

(* the device has every register that save() writes, can map the objects, and the PDO fits a frame *)
Definition dev_coversb (d : device) (r0 : regs) (com : Z) (c : cfg) : bool :=
  forallb (fun w : write => rhas r0 (fst (fst w)) (snd (fst w))) (save_writes com (com + 0x200) c) &&
  forallb (fun e => entry_ok (d_objs d) (entry_word e)) (c_map c) &&
  (map_total (c_map c) <=? 64).

(* every mapped object is in the dictionary of the reading node *)
Definition in_odb (objs : list (Z * objdesc)) (e : entry) : bool :=
  let '(i, s, _) := e in match od_lookup objs i s with Some _ => true | None => false end.

(* the CiA 301 encodings of the COB-ID entry and of a mapping entry *)
Definition cob_word (c : cfg) (cob : Z) : Z :=
  cob + (if c_enabled c then 0 else 2 ^ 31) + (if c_rtr c then 0 else 2 ^ 30).
Definition map_word (e : entry) : Z := let '(i, s, l) := e in i * 65536 + s * 256 + l.

Definition acc (ws : list write) : list (write * option Z) := map (fun w => (w, None)) ws.

Lemma cfg_wfb_cob c : cfg_wfb c = true -> exists cob, c_cob c = Some cob.
Proof. unfold cfg_wfb. destruct (c_cob c) as [cob|]; [now exists cob|discriminate]. Qed.

Lemma cfg_wfb_spec c cob : cfg_wfb c = true -> c_cob c = Some cob ->
  0 <= cob < 2 ^ 29 /\ opt_fits 8 (c_tt c) = true /\ opt_fits 16 (c_inhibit c) = true /\
  opt_fits 16 (c_event c) = true /\ opt_fits 8 (c_sync c) = true /\
  forallb entry_wfb (c_map c) = true /\ zlen (c_map c) < 256.
Proof.
  unfold cfg_wfb. intros H E. rewrite E in H. repeat (apply andb_prop in H as [H ?]). repeat split; auto; lia.
Qed.

Lemma od_parts od c : od_coversb od c = true ->
  com_has od 1 = true /\ opt_has od 2 (c_tt c) = true /\ opt_has od 3 (c_inhibit c) = true /\
  opt_has od 5 (c_event c) = true /\ opt_has od 6 (c_sync c) = true /\ zlen (c_map c) <= o_nmap od.
Proof. unfold od_coversb. intros H. repeat (apply andb_prop in H as [H ?]). repeat split; auto. lia. Qed.

Lemma entry_wfb_spec i s l : entry_wfb (i, s, l) = true ->
  0 < i < 65536 /\ 0 <= s < 256 /\ 0 < l < 128.
Proof. unfold entry_wfb. lia. Qed.

Lemma land_low_high a b n : 0 <= n -> 0 <= a < 2 ^ n -> Z.land a (b * 2 ^ n) = 0.
Proof.
  intros Hn Ha. apply Z.bits_inj'. intros i Hi. rewrite Z.land_spec, Z.bits_0.
  destruct (Z_lt_le_dec i n).
  - rewrite Z.mul_pow2_bits_low by lia. apply andb_false_r.
  - replace a with (a mod 2 ^ n) by (apply Z.mod_small; lia).
    rewrite Z.mod_pow2_bits_high by lia. reflexivity.
Qed.

Lemma lor_low_high a b n : 0 <= n -> 0 <= a < 2 ^ n -> Z.lor a (b * 2 ^ n) = a + b * 2 ^ n.
Proof.
  intros Hn Ha. rewrite Z.add_nocarry_lxor by (apply land_low_high; lia).
  symmetry. apply Z.lxor_lor, land_low_high; lia.
Qed.

(* last write: cob | rtr *)
Lemma last_word c cob : 0 <= cob < 2 ^ 29 ->
  Z.lor cob (rtr_bit c) = cob + (if c_rtr c then 0 else 2 ^ 30).
Proof.
  intros H. unfold rtr_bit. destruct (c_rtr c); [now rewrite Z.lor_0_r, Z.add_0_r|].
  apply (lor_low_high cob 1 30); lia.
Qed.

(* first write: cob | PDO_NOT_VALID | rtr *)
Lemma first_word c cob : 0 <= cob < 2 ^ 29 ->
  Z.lor (Z.lor cob PDO_NOT_VALID) (rtr_bit c) = cob + 2 ^ 31 + (if c_rtr c then 0 else 2 ^ 30).
Proof.
  intros H. rewrite <- Z.lor_assoc, (Z.lor_comm PDO_NOT_VALID), Z.lor_assoc, last_word by exact H.
  change PDO_NOT_VALID with (1 * 2 ^ 31). rewrite lor_low_high by (destruct (c_rtr c); lia). lia.
Qed.

(* cob < 2^29 plus the two flags: quotients and remainder are read off the sum *)
Lemma flag_word_bits cob (en rtr : bool) : 0 <= cob < 2 ^ 29 ->
  let w := cob + (if en then 0 else 2 ^ 31) + (if rtr then 0 else 2 ^ 30) in
  0 <= w < 2 ^ 32 /\ Z.testbit w 31 = negb en /\ Z.testbit w 30 = negb rtr /\ w mod 2 ^ 29 = cob.
Proof.
  intros H. cbv zeta.
  replace (cob + _ + _) with (cob + 2 ^ 29 * ((if en then 0 else 4) + (if rtr then 0 else 2))) by (destruct en, rtr; lia).
  rewrite !testbit_add_shift, (Z.mul_comm (2 ^ 29)), Z.mod_add, Z.mod_small by lia.
  split; [destruct en, rtr; lia|]. now destruct en, rtr.
Qed.

Lemma cob_word_bits c cob : 0 <= cob < 2 ^ 29 ->
  let w := cob_word c cob in
  0 <= w < 2 ^ 32 /\ Z.testbit w 31 = negb (c_enabled c) /\ Z.testbit w 30 = negb (c_rtr c) /\
  w mod 2 ^ 29 = cob.
Proof. exact (flag_word_bits cob (c_enabled c) (c_rtr c)). Qed.

Lemma flag_words c cob : 0 <= cob < 2 ^ 29 ->
  let first := cob + 2 ^ 31 + (if c_rtr c then 0 else 2 ^ 30) in
  let last := cob + (if c_rtr c then 0 else 2 ^ 30) in
  fits 32 first = true /\ fits 32 last = true /\ Z.testbit first 31 = true /\ Z.testbit last 31 = false.
Proof.
  intros H. destruct (flag_word_bits cob false (c_rtr c) H) as (F & Bf & _).
  destruct (flag_word_bits cob true (c_rtr c) H) as (L & Bl & _). cbv iota in *. rewrite Z.add_0_r in L, Bl.
  unfold fits. repeat split; [lia|lia|exact Bf|exact Bl].
Qed.

(* read() decodes the COB-ID word *)
Lemma cob_word_decode c cob : 0 <= cob < 2 ^ 29 ->
  let w := cob_word c cob in
  Z.land w 0x1FFFFFFF = cob /\ (Z.land w PDO_NOT_VALID =? 0) = c_enabled c /\
  (Z.land w RTR_NOT_ALLOWED =? 0) = c_rtr c.
Proof.
  intros H w. destruct (cob_word_bits c cob H) as (_ & H31 & H30 & Hm). fold w in H31, H30, Hm.
  change 0x1FFFFFFF with (Z.ones 29). change PDO_NOT_VALID with (2 ^ 31). change RTR_NOT_ALLOWED with (2 ^ 30).
  rewrite Z.land_ones, !land_pow2, H31, H30 by easy.
  split; [exact Hm|]. destruct (c_enabled c), (c_rtr c); split; reflexivity.
Qed.

Lemma entry_word_eq i s l : 0 <= s < 256 -> 0 <= l < 256 ->
  entry_word (i, s, l) = map_word (i, s, l).
Proof.
  intros Hs Hl. unfold entry_word, map_word. rewrite !Z.shiftl_mul_pow2 by lia.
  rewrite (Z.lor_comm (i * 2 ^ 16)), (lor_low_high (s * 2 ^ 8) i 16), Z.lor_comm by lia.
  replace (s * 2 ^ 8 + i * 2 ^ 16) with ((s + i * 256) * 2 ^ 8) by lia.
  rewrite lor_low_high by lia. lia.
Qed.

Lemma entry_word_wf e : entry_wfb e = true -> entry_word e = map_word e /\ fits 32 (entry_word e) = true.
Proof.
  destruct e as [[i s] l]. intros H. apply entry_wfb_spec in H. rewrite entry_word_eq by lia.
  unfold map_word, fits. lia.
Qed.

(* read() decodes a mapping word *)
Lemma map_word_decode i s l : 0 <= s < 256 -> 0 <= l < 128 ->
  let w := map_word (i, s, l) in
  Z.shiftr w 16 = i /\ Z.land (Z.shiftr w 8) 0xFF = s /\ Z.land w 0x7F = l /\ word_len w = l.
Proof.
  intros Hs Hl. unfold word_len, map_word.
  change 0xFF with (Z.ones 8). change 255 with (Z.ones 8). change 0x7F with (Z.ones 7).
  rewrite !Z.land_ones, !Z.shiftr_div_pow2 by lia. Z.div_mod_to_equations. lia.
Qed.

Lemma rget_rset_eq r i s v : rget (rset r i s v) i s = Some v.
Proof. unfold rset. cbn [rget]. now rewrite !Z.eqb_refl. Qed.

Lemma rget_rset_neq r i s v i' s' : i' <> i \/ s' <> s -> rget (rset r i s v) i' s' = rget r i' s'.
Proof. intros H. unfold rset. cbn [rget]. now replace ((i' =? i) && (s' =? s)) with false by lia. Qed.

Lemma rhas_rset r i s v i' s' : rhas r i' s' = true -> rhas (rset r i s v) i' s' = true.
Proof. unfold rhas, rset. cbn [rget]. now destruct ((i' =? i) && (s' =? s)). Qed.

Lemma apply_writes_app r a b : apply_writes r (a ++ b) = apply_writes (apply_writes r a) b.
Proof. revert r. induction a as [|[[i s] v] a IH]; intros r; cbn [apply_writes app]; auto. Qed.

Lemma rhas_apply ws i s : forall r, rhas r i s = true -> rhas (apply_writes r ws) i s = true.
Proof.
  induction ws as [|[[i' s'] v] ws IH]; intros r H; cbn [apply_writes]; auto using rhas_rset.
Qed.

(* a group leaves alone what it does not write *)
Lemma rget_opt_neq r i s o i' s' : i' <> i \/ s' <> s ->
  rget (apply_writes r (opt_write i s o)) i' s' = rget r i' s'.
Proof. intros H. destruct o; [apply rget_rset_neq, H|reflexivity]. Qed.

Lemma rget_entries_neq mp m i s : forall k r, i <> mp \/ s < k \/ k + zlen m <= s ->
  rget (apply_writes r (entry_writes mp k m)) i s = rget r i s.
Proof.
  induction m as [|e m IH]; intros k r H; cbn [entry_writes apply_writes]; [reflexivity|].
  rewrite zlen_cons in H. pose proof (zlen_nonneg m). rewrite IH, rget_rset_neq by lia. reflexivity.
Qed.

Lemma rget_final_neq r com c cob i s : i <> com \/ s <> 1 ->
  rget (apply_writes r (final_writes com c cob)) i s = rget r i s.
Proof. intros H. unfold final_writes. destruct (c_enabled c); [apply rget_rset_neq, H|reflexivity]. Qed.

Lemma entry_writes_nth mp m : forall k j e, nth_error m j = Some e ->
  nth_error (entry_writes mp k m) j = Some (mp, k + Z.of_nat j, entry_word e).
Proof.
  induction m as [|e0 m IH]; intros k [|j] e H; try discriminate; cbn [entry_writes nth_error] in *.
  - injection H as ->. now rewrite Z.add_0_r.
  - rewrite (IH (k + 1) j e H). do 3 f_equal. lia.
Qed.

Lemma rget_entry_writes mp m : forall k r j e, nth_error m j = Some e ->
  rget (apply_writes r (entry_writes mp k m)) mp (k + Z.of_nat j) = Some (entry_word e).
Proof.
  induction m as [|e0 m IH]; intros k r [|j] e H; try discriminate; cbn [entry_writes apply_writes nth_error] in *.
  - injection H as ->. rewrite rget_entries_neq, Z.add_0_r by lia. apply rget_rset_eq.
  - replace (k + Z.of_nat (S j)) with ((k + 1) + Z.of_nat j) by lia. now apply IH.
Qed.

Lemma save_writes_groups com mp c cob : c_cob c = Some cob ->
  save_writes com mp c =
  [(com, 1, Z.lor (Z.lor cob PDO_NOT_VALID) (rtr_bit c))] ++ param_writes com c ++
  [(mp, 0, 0)] ++ entry_writes mp 1 (c_map c) ++ [(mp, 0, zlen (c_map c))] ++ final_writes com c cob.
Proof. unfold save_writes. now intros ->. Qed.

Lemma com_width com k : is_com com = true ->
  reg_width com k = if k =? 1 then 32 else if k =? 3 then 16 else if k =? 5 then 16 else 8.
Proof. unfold reg_width. now intros ->. Qed.

Fixpoint all_accepted (d : device) (r : regs) (ws : list write) : bool :=
  match ws with
  | [] => true
  | (i, s, v) :: t =>
      match dev_check d r i s v with
      | None => all_accepted d (rset r i s v) t
      | Some _ => false
      end
  end.

Lemma all_accepted_app d a : forall r b,
  all_accepted d r (a ++ b) = all_accepted d r a && all_accepted d (apply_writes r a) b.
Proof.
  induction a as [|[[i s] v] a IH]; intros r b; cbn [all_accepted app apply_writes]; [reflexivity|].
  destruct (dev_check d r i s v); [reflexivity|apply IH].
Qed.

Lemma run_writes_accepted d ws : forall r lg, all_accepted d r ws = true ->
  run_writes d (r, lg) ws = ((apply_writes r ws, lg ++ acc ws), None).
Proof.
  induction ws as [|[[i s] v] ws IH]; intros r lg H; cbn [run_writes apply_writes acc map].
  - now rewrite app_nil_r.
  - cbn [all_accepted] in H. unfold log_write, dev_write.
    destruct (dev_check d r i s v) eqn:E; [discriminate|].
    rewrite IH by assumption. rewrite <- app_assoc. reflexivity.
Qed.

(* the registers written by ws exist *)
Definition has (r : regs) (ws : list write) : Prop :=
  Forall (fun w : write => rhas r (fst (fst w)) (snd (fst w)) = true) ws.

Lemma has_apply r l ws : has r ws -> has (apply_writes r l) ws.
Proof. apply Forall_impl. intros w. apply rhas_apply. Qed.

Section Device.
  Context (d : device) (com : Z).
  Context (Hmode : d_mode d = MODE_STRICT) (Hcom : is_com com = true).
  Let mp := com + 0x200.

  (* from every state that has the registers of ws and satisfies P the device accepts ws, one write after the
     other, and ends in a state that satisfies Q *)
  Definition accepts (P : regs -> Prop) (ws : list write) (Q : regs -> Prop) : Prop :=
    forall r, has r ws -> P r -> all_accepted d r ws = true /\ Q (apply_writes r ws).

  Lemma accepts_one (P Q : regs -> Prop) i s v :
    (forall r, rhas r i s = true -> P r -> dev_check d r i s v = None /\ Q (rset r i s v)) ->
    accepts P [(i, s, v)] Q.
  Proof.
    intros H r Hh HP. inversion Hh as [|? ? Hr _]. destruct (H r Hr HP) as [E HQ].
    cbn [all_accepted apply_writes]. now rewrite E.
  Qed.

  Lemma accepts_app (P Q R : regs -> Prop) a b : accepts P a Q -> accepts Q b R -> accepts P (a ++ b) R.
  Proof.
    intros Ha Hb r Hh HP. apply Forall_app in Hh as [h1 h2].
    destruct (Ha r h1 HP) as [A1 HQ]. destruct (Hb _ (has_apply r a b h2) HQ) as [A2 HR].
    now rewrite all_accepted_app, apply_writes_app, A1, A2.
  Qed.

  Lemma idx_facts : is_com mp = false /\ is_map mp = true /\ mp - 0x200 = com.
  Proof. subst mp. unfold is_com, is_map in *. lia. Qed.

  Lemma mode_flags : (d_mode d =? MODE_LENIENT) = false /\ (d_mode d =? MODE_RO_COUNT) = false.
  Proof. rewrite Hmode. split; reflexivity. Qed.

  (* a communication parameter may be written while the PDO is invalid; the COB-ID entry also with bit 31 set *)
  Lemma check_com r s v : rhas r com s = true -> fits (reg_width com s) v = true -> s <> 0 ->
    pdo_valid r com = false \/ (s = 1 /\ Z.testbit v 31 = true) -> dev_check d r com s v = None.
  Proof.
    intros Hh Hf Hs Hv. destruct mode_flags as [Hl _].
    unfold dev_check, rhas in *. destruct (rget r com s); [|discriminate].
    rewrite Hf, Hl, Hcom. unfold com_check. replace (s =? 0) with false by lia.
    destruct Hv as [-> | [-> ->]]; [now destruct (s =? 1)|now rewrite andb_false_r].
  Qed.

  (* the checks of a mapping register while the PDO is invalid *)
  Lemma check_map r k v : rhas r mp k = true -> fits (if k =? 0 then 8 else 32) v = true ->
    pdo_valid r com = false ->
    dev_check d r mp k v =
    if k =? 0 then
      if v =? 0 then None
      else match entries_sum (d_objs d) r mp 1 (Z.to_nat v) with
           | Some t => if t <=? 64 then None else Some AB_PDO_LENGTH
           | None => Some AB_NOT_MAPPABLE
           end
    else if match rget r mp 0 with Some n => n =? 0 | None => false end
         then (if entry_ok (d_objs d) v then None else Some AB_NOT_MAPPABLE) else Some AB_STATE.
  Proof.
    intros Hh Hf Hv. destruct idx_facts as (H1 & H2 & H4), mode_flags as [Hl Hro].
    unfold dev_check, rhas, reg_width, map_check in *. destruct (rget r mp k); [|discriminate].
    rewrite H1, H2, Hf, Hl, H4, Hv, Hro, orb_false_r. cbn [negb andb].
    destruct (k =? 0); [reflexivity|]. now destruct (match rget r mp 0 with Some n => n =? 0 | None => false end).
  Qed.

  Lemma entries_sum_spec r : forall m k,
    (forall j e, nth_error m j = Some e -> rget r mp (k + Z.of_nat j) = Some (entry_word e)) ->
    forallb (fun e => entry_ok (d_objs d) (entry_word e)) m = true ->
    forallb entry_wfb m = true ->
    entries_sum (d_objs d) r mp k (length m) = Some (map_total m).
  Proof.
    induction m as [|[[i s] l] m IH]; intros k Hg Hok Hwf; cbn [entries_sum length map_total]; [reflexivity|].
    cbn [forallb] in Hok, Hwf. apply andb_prop in Hok as [Hok1 Hok2]. apply andb_prop in Hwf as [Hwf1 Hwf2].
    pose proof (Hg 0%nat _ eq_refl) as G0. rewrite Z.add_0_r in G0. rewrite G0, Hok1, (IH (k + 1)); auto.
    - apply entry_wfb_spec in Hwf1. rewrite entry_word_eq by lia.
      destruct (map_word_decode i s l) as (_ & _ & _ & ->); [lia|lia|reflexivity].
    - intros j e Hj. replace (k + 1 + Z.of_nat j) with (k + Z.of_nat (S j)) by lia. now apply Hg.
  Qed.

  Definition invalid (r : regs) : Prop := pdo_valid r com = false.
  Definition cleared (r : regs) : Prop := invalid r /\ rget r mp 0 = Some 0.
  Definition mapped (m : list entry) (r : regs) : Prop :=
    invalid r /\ forall j e, nth_error m j = Some e -> rget r mp (1 + Z.of_nat j) = Some (entry_word e).

  Lemma invalid_rset r i s v : i <> com \/ s <> 1 -> invalid r -> invalid (rset r i s v).
  Proof. unfold invalid, pdo_valid. intros H. now rewrite rget_rset_neq by lia. Qed.

  Lemma disable_ok v : fits 32 v = true -> Z.testbit v 31 = true -> accepts (fun _ => True) [(com, 1, v)] invalid.
  Proof.
    intros Hf Hb. apply accepts_one. intros r Hh _. split.
    - apply check_com; auto; [now rewrite com_width|lia].
    - unfold invalid, pdo_valid. now rewrite rget_rset_eq, Hb.
  Qed.

  Lemma param_ok k w o : In k [2; 3; 5; 6] -> reg_width com k = w -> opt_fits w o = true ->
    accepts invalid (opt_write com k o) invalid.
  Proof.
    intros Hk <- Hf. assert (k <> 0 /\ k <> 1) as [] by (cbn [In] in Hk; lia).
    destruct o as [v|]; [|now split]. apply accepts_one. intros r Hh Hv. split.
    - apply check_com; auto.
    - apply invalid_rset; auto.
  Qed.

  Lemma params_ok c : opt_fits 8 (c_tt c) = true -> opt_fits 16 (c_inhibit c) = true ->
    opt_fits 16 (c_event c) = true -> opt_fits 8 (c_sync c) = true -> accepts invalid (param_writes com c) invalid.
  Proof.
    intros F2 F3 F5 F6. unfold param_writes.
    repeat (apply accepts_app with (Q := invalid));
      [apply (param_ok 2 8)|apply (param_ok 3 16)|apply (param_ok 5 16)|apply (param_ok 6 8)];
      cbn [In]; auto 6; exact (com_width com _ Hcom).
  Qed.

  Lemma clear_ok : accepts invalid [(mp, 0, 0)] cleared.
  Proof.
    apply accepts_one. intros r Hh Hv. split; [now rewrite check_map|].
    split; [apply invalid_rset; [unfold mp; lia|exact Hv]|apply rget_rset_eq].
  Qed.

  Lemma entries_inv m : forall k, 0 < k -> forallb entry_wfb m = true ->
    forallb (fun e => entry_ok (d_objs d) (entry_word e)) m = true ->
    accepts cleared (entry_writes mp k m) cleared.
  Proof.
    induction m as [|e m IH]; intros k Hk Hwf Hok; cbn [entry_writes forallb] in *; [now split|].
    apply andb_prop in Hwf as [W1 W2]. apply andb_prop in Hok as [O1 O2].
    apply (accepts_app _ cleared _ [_]); [|apply IH; auto; lia].
    apply accepts_one. intros r Hh [Hv H0]. split.
    - rewrite check_map, H0, O1; auto; replace (k =? 0) with false by lia; [reflexivity|apply entry_word_wf, W1].
    - split; [apply invalid_rset; [unfold mp; lia|exact Hv]|now rewrite rget_rset_neq by lia].
  Qed.

  Lemma entries_ok m : forallb entry_wfb m = true ->
    forallb (fun e => entry_ok (d_objs d) (entry_word e)) m = true ->
    accepts cleared (entry_writes mp 1 m) (mapped m).
  Proof.
    intros Hwf Hok r Hh HP. destruct (entries_inv m 1 ltac:(lia) Hwf Hok r Hh HP) as [A [Hv _]].
    split; [exact A|]. split; [exact Hv|]. intros j e. apply rget_entry_writes.
  Qed.

  Lemma count_ok m : forallb entry_wfb m = true ->
    forallb (fun e => entry_ok (d_objs d) (entry_word e)) m = true -> zlen m < 256 -> map_total m <= 64 ->
    accepts (mapped m) [(mp, 0, zlen m)] invalid.
  Proof.
    intros Hwf Hok Hlen Htot. apply accepts_one. intros r Hh [Hv Hg]. split.
    - rewrite check_map; auto; [|unfold fits, zlen in *; cbn [Z.eqb]; lia]. cbn [Z.eqb].
      destruct (zlen m =? 0); [reflexivity|].
      unfold zlen. rewrite Nat2Z.id, (entries_sum_spec r m 1 Hg Hok Hwf).
      now replace (map_total m <=? 64) with true by lia.
    - apply invalid_rset; [unfold mp; lia|exact Hv].
  Qed.

  Lemma enable_ok c cob : fits 32 (Z.lor cob (rtr_bit c)) = true ->
    accepts invalid (final_writes com c cob) (fun _ => True).
  Proof.
    intros Hf. unfold final_writes. destruct (c_enabled c); [|now split].
    apply accepts_one. intros r Hh Hv. split; [|exact I].
    apply check_com; auto; [now rewrite com_width|lia].
  Qed.
End Device.

Section Strict.
  Context (d : device) (com : Z).
  Context (Hmode : d_mode d = MODE_STRICT) (Hcom : is_com com = true).
  Let mp := com + 0x200.
  Context (c : cfg) (r0 : regs).
  Context (Hwf : cfg_wfb c = true) (Hdev : dev_coversb d r0 com c = true).
  Let ws := save_writes com mp c.

  Definition Pres (r : regs) : Prop := Forall (fun w : write => rhas r (fst (fst w)) (snd (fst w)) = true) ws.

  Lemma Pres_apply r l : Pres r -> Pres (apply_writes r l).
  Proof. exact (has_apply r l ws). Qed.

  Theorem save_all_accepted : all_accepted d r0 ws = true.
  Proof.
    destruct (cfg_wfb_cob c Hwf) as [cob Hcob].
    destruct (cfg_wfb_spec c cob Hwf Hcob) as (Hr & F2 & F3 & F5 & F6 & Hm & Hl).
    destruct (flag_words c cob Hr) as (Ff & Fl & Bf & _).
    unfold dev_coversb in Hdev. apply andb_prop in Hdev as [Hd Htot]. apply andb_prop in Hd as [Hh Hok].
    assert (H0 : has r0 ws) by apply Forall_forall, forallb_forall, Hh.
    refine (proj1 ((_ : accepts d (fun _ => True) ws (fun _ => True)) r0 H0 I)).
    unfold ws. rewrite (save_writes_groups com mp c cob Hcob).
    apply accepts_app with (Q := invalid com); [apply disable_ok; auto; now rewrite first_word|].
    apply accepts_app with (Q := invalid com); [now apply params_ok|].
    apply accepts_app with (Q := cleared com); [now apply clear_ok|].
    apply accepts_app with (Q := mapped com (c_map c)); [now apply entries_ok|].
    apply accepts_app with (Q := invalid com); [apply count_ok; auto; lia|].
    apply enable_ok; auto. now rewrite last_word.
  Qed.
End Strict.

Lemma dev_check_fits d r i s v : dev_check d r i s v = None -> fits (reg_width i s) v = true.
Proof. unfold dev_check. destruct (rget r i s); [|discriminate]. now destruct (fits (reg_width i s) v). Qed.

Section SaveRuns.
  Context (d : device) (od : oddesc) (com : Z) (Hcom : is_com com = true).
  Let mp := com + 0x200.

  (* run against the logging device from a state in which it accepts ws, m sends exactly ws and returns a *)
  Definition performs {A} (m : @M lstate A) (ws : list write) (a : A) : Prop :=
    forall r lg, all_accepted d r ws = true -> m (r, lg) = ((apply_writes r ws, lg ++ acc ws), Ok a).

  Lemma performs_bind {A B} (m : @M lstate A) (f : A -> @M lstate B) ws1 ws2 a b :
    performs m ws1 a -> performs (f a) ws2 b -> performs (bind m f) (ws1 ++ ws2) b.
  Proof.
    intros H1 H2 r lg Ha. rewrite all_accepted_app in Ha. apply andb_prop in Ha as [A1 A2].
    unfold bind, acc. now rewrite (H1 r lg A1), (H2 _ _ A2), apply_writes_app, map_app, app_assoc.
  Qed.

  Lemma performs_eq {A} (m : @M lstate A) ws ws' a : performs m ws a -> ws = ws' -> performs m ws' a.
  Proof. now intros H <-. Qed.

  Lemma performs_ret {A} (a : A) : performs (ret a) [] a.
  Proof. intros r lg _. unfold ret. now rewrite app_nil_r. Qed.

  (* the range check of encode_raw is the device's, the dictionary having the CiA 301 types *)
  Lemma performs_set present w i s v : present = true -> reg_width i s = w ->
    performs (sdo_set (log_write d) present w i s v) [(i, s, v)] tt.
  Proof.
    intros -> <- r lg Ha. cbn [all_accepted] in Ha. unfold sdo_set, log_write, dev_write.
    destruct (dev_check d r i s v) eqn:E; [discriminate|]. now rewrite (dev_check_fits _ _ _ _ _ E).
  Qed.

  Lemma performs_opt k w o : opt_has od k o = true -> reg_width com k = w ->
    performs (set_opt (log_write d) (com_has od k) w com k o) (opt_write com k o) tt.
  Proof. destruct o; [apply performs_set|intros _ _; apply performs_ret]. Qed.

  Lemma map_width k : reg_width mp k = if k =? 0 then 8 else 32.
  Proof. unfold reg_width, is_com, is_map, mp in *. now replace (_ || _) with false by lia; replace (_ || _) with true by lia. Qed.

  Lemma performs_entries m : forall k, 0 < k -> k + zlen m <= o_nmap od + 1 ->
    performs (write_entries (log_write d) od mp k m) (entry_writes mp k m) tt.
  Proof.
    induction m as [|e m IH]; intros k Hk Hn; cbn [write_entries entry_writes]; [apply performs_ret|].
    rewrite zlen_cons in Hn. pose proof (zlen_nonneg m).
    apply (performs_bind _ _ [_] _ tt); [apply performs_set|apply IH; lia].
    - unfold map_has. lia.
    - rewrite map_width. now replace (k =? 0) with false by lia.
  Qed.

  Lemma performs_zero m : map_has od 0 = true -> performs (zero_count (log_write d) log_ul od mp m) [(mp, 0, 0)] m.
  Proof.
    intros H0 r lg Ha. unfold zero_count. now rewrite (performs_set _ 8 mp 0 0 H0 (map_width 0) r lg Ha).
  Qed.

  Lemma performs_count n : map_has od 0 = true -> performs (set_count (log_write d) od mp n) [(mp, 0, n)] tt.
  Proof.
    intros H0 r lg Ha. unfold set_count. now rewrite (performs_set _ 8 mp 0 n H0 (map_width 0) r lg Ha).
  Qed.

  Lemma performs_validate c cob subs : com_has od 1 = true -> reg_width com 1 = 32 ->
    performs (save_validate (log_write d) od com c cob subs) (final_writes com c cob)
             (c, if c_enabled c then subscribe c subs else subs).
  Proof.
    intros O1 W. unfold save_validate, final_writes. destruct (c_enabled c); [|apply performs_ret].
    apply (performs_bind _ _ [_] [] tt); [now apply performs_set|apply performs_ret].
  Qed.

  Theorem save_io_accepted c cob subs : c_cob c = Some cob -> od_coversb od c = true ->
    performs (save_io (log_write d) log_ul od com mp c subs) (save_writes com mp c)
             (c, if c_enabled c then subscribe c subs else subs).
  Proof.
    intros Hcob Hod. destruct (od_parts od c Hod) as (O1 & O2 & O3 & O5 & O6 & On).
    pose proof (zlen_nonneg (c_map c)).
    assert (H0 : map_has od 0 = true) by (unfold map_has; lia).
    pose proof (fun k => com_width com k Hcom) as W.
    unfold save_io, save_prefix, save_entries. rewrite Hcob, (save_writes_groups com mp c cob Hcob).
    eapply performs_eq.
    - eapply performs_bind.
      + eapply performs_bind; [apply performs_set; [exact O1|apply W]|].
        do 4 (eapply performs_bind; [apply performs_opt; [assumption|apply W]|]). now apply performs_zero.
      + cbv beta. replace (with_map c (c_map c)) with c by now destruct c.
        eapply performs_bind; [eapply performs_bind; [apply performs_entries; lia|now apply performs_count]|].
        apply performs_validate; [exact O1|apply W].
    - unfold param_writes. now rewrite <- !app_assoc.
  Qed.
End SaveRuns.

Lemma rget_params_neq r com c i s : i <> com \/ (s <> 2 /\ s <> 3 /\ s <> 5 /\ s <> 6) ->
  rget (apply_writes r (param_writes com c)) i s = rget r i s.
Proof. intros H. unfold param_writes. now rewrite !apply_writes_app, !rget_opt_neq by lia. Qed.

Lemma rget_params r com c k o v : In (k, o) [(2, c_tt c); (3, c_inhibit c); (5, c_event c); (6, c_sync c)] ->
  o = Some v -> rget (apply_writes r (param_writes com c)) com k = Some v.
Proof.
  intros Hin ->. unfold param_writes. rewrite !apply_writes_app. cbn [In] in Hin.
  destruct Hin as [E|[E|[E|[E|[]]]]]; injection E as <- ->; rewrite ?rget_opt_neq by lia; apply rget_rset_eq.
Qed.

Section Final.
  Context (com : Z) (c : cfg) (r0 : regs) (cob : Z).
  Context (Hwf : cfg_wfb c = true) (Hcob : c_cob c = Some cob).
  Let mp := com + 0x200.
  Let r' := apply_writes r0 (save_writes com mp c).

  (* the groups one after the other; a register is looked up from the last group backwards *)
  Lemma save_regs : r' =
    apply_writes (rset (apply_writes (rset (apply_writes
      (rset r0 com 1 (Z.lor (Z.lor cob PDO_NOT_VALID) (rtr_bit c))) (param_writes com c)) mp 0 0)
      (entry_writes mp 1 (c_map c))) mp 0 (zlen (c_map c))) (final_writes com c cob).
  Proof. unfold r'. now rewrite (save_writes_groups com mp c cob Hcob), !apply_writes_app. Qed.

  Lemma final_com1 : rget r' com 1 = Some (cob_word c cob).
  Proof.
    destruct (cfg_wfb_spec c cob Hwf Hcob) as [Hr _]. rewrite save_regs. unfold final_writes, cob_word, mp.
    destruct (c_enabled c); cbn [apply_writes].
    - now rewrite rget_rset_eq, last_word, Z.add_0_r.
    - now rewrite rget_rset_neq, rget_entries_neq, rget_rset_neq, rget_params_neq, rget_rset_eq, first_word by lia.
  Qed.

  Lemma final_param k o v : In (k, o) [(2, c_tt c); (3, c_inhibit c); (5, c_event c); (6, c_sync c)] ->
    o = Some v -> rget r' com k = Some v.
  Proof.
    intros Hin E. assert (k <> 1) by (intros ->; cbn [In] in Hin; intuition discriminate).
    rewrite save_regs, rget_final_neq, rget_rset_neq, rget_entries_neq, rget_rset_neq by (unfold mp; lia).
    exact (rget_params _ com c k o v Hin E).
  Qed.

  Lemma final_count : rget r' mp 0 = Some (zlen (c_map c)).
  Proof. rewrite save_regs, rget_final_neq by (unfold mp; lia). apply rget_rset_eq. Qed.

  Lemma final_entry j e : nth_error (c_map c) j = Some e -> rget r' mp (1 + Z.of_nat j) = Some (map_word e).
  Proof.
    intros H. destruct (cfg_wfb_spec c cob Hwf Hcob) as (_ & _ & _ & _ & _ & Hm & _).
    rewrite forallb_forall in Hm. destruct (entry_word_wf e (Hm e (nth_error_In _ _ H))) as [<- _].
    rewrite save_regs, rget_final_neq, rget_rset_neq by (unfold mp; lia). now apply rget_entry_writes.
  Qed.

  Lemma final_frame i s : i <> com -> i <> mp -> rget r' i s = rget r0 i s.
  Proof.
    intros H1 H2.
    now rewrite save_regs, rget_final_neq, rget_rset_neq, rget_entries_neq, rget_rset_neq, rget_params_neq, rget_rset_neq by lia.
  Qed.
End Final.

Definition same_config (c c' : cfg) (cob tt : Z) : Prop :=
  c_cob c' = Some cob /\ c_enabled c' = c_enabled c /\ c_rtr c' = c_rtr c /\ c_tt c' = Some tt /\
  c_map c' = c_map c /\
  (254 <= tt -> (forall v, c_inhibit c = Some v -> c_inhibit c' = Some v) /\
                (forall v, c_event c = Some v -> c_event c' = Some v) /\
                (forall v, c_sync c = Some v -> c_sync c' = Some v)) /\
  (tt < 254 -> c_inhibit c' = None /\ c_event c' = None /\ c_sync c' = None).

Definition benign (r : res (option Z)) : Prop := match r with Err k => k = E_KEY | _ => True end.

Lemma read_opt_benign get com k prev : benign (get com k) ->
  read_opt get com k prev = Ok (match get com k with Ok o => o | _ => prev end).
Proof.
  unfold read_opt, benign. destruct (get com k) as [o|e|a]; [reflexivity|intros ->; reflexivity|reflexivity].
Qed.

Lemma read_entries_spec get objs mp : forall rest k done,
  (forall j e, nth_error rest j = Some e -> get mp (k + Z.of_nat j) = Ok (Some (map_word e))) ->
  forallb entry_wfb rest = true -> forallb (in_odb objs) rest = true ->
  read_entries get objs mp k (length rest) done = Ok (done ++ rest).
Proof.
  induction rest as [|[[i s] l] rest IH]; intros k done Hg Hwf Hod; cbn [read_entries length].
  - now rewrite app_nil_r.
  - cbn [forallb] in Hwf, Hod. apply andb_prop in Hwf as [W1 W2]. apply andb_prop in Hod as [O1 O2].
    pose proof (Hg 0%nat _ eq_refl) as G0. rewrite Z.add_0_r in G0.
    rewrite G0. cbn [rbind need_int]. apply entry_wfb_spec in W1.
    destruct (map_word_decode i s l) as (D1 & D2 & D3 & _); [lia|lia|]. rewrite D1, D2, D3.
    replace ((i =? 0) || (l =? 0)) with false by lia.
    unfold add_variable. unfold in_odb in O1. destruct (od_lookup objs i s); [|discriminate].
    rewrite (IH (k + 1)); auto.
    + now rewrite <- app_assoc.
    + intros j e Hj. replace (k + 1 + Z.of_nat j) with (k + Z.of_nat (S j)) by lia. now apply Hg.
Qed.

(* read() from a source that raises nothing but KeyError: the timers are attempted for transmission types 254/255 only *)
Lemma read_cfg_benign get objs com mp old subs raw tt n m :
  get com 1 = Ok (Some raw) -> get com 2 = Ok (Some tt) -> (forall k, benign (get com k)) ->
  get mp 0 = Ok (Some n) -> read_entries get objs mp 1 (Z.to_nat n) [] = Ok m ->
  let timer k prev := if tt >=? 254 then match get com k with Ok o => o | _ => prev end else prev in
  let c' := mkCfg (Some (Z.land raw 0x1FFFFFFF)) (Z.land raw PDO_NOT_VALID =? 0) (Z.land raw RTR_NOT_ALLOWED =? 0)
                  (Some tt) (timer 3 (c_inhibit old)) (timer 5 (c_event old)) (timer 6 (c_sync old)) m in
  read_cfg get objs com mp old subs = Ok (c', subscribe c' subs).
Proof.
  intros G1 G2 Hb G0 Hm. unfold read_cfg. rewrite G1, G2, G0. cbn [rbind need_int].
  rewrite Hm, !read_opt_benign by apply Hb. now destruct (tt >=? 254).
Qed.

(* read() from a source of raw values that raises nothing but KeyError and delivers [look i s] for every entry
   the dictionary has, [look] holding the encodings of c *)
Theorem read_encoded od com mp get look c cob tt :
  mp <> com -> (forall i s, benign (get i s)) ->
  (forall i s v, (if i =? com then com_has od s else if i =? mp then map_has od s else false) = true ->
     look i s = Some v -> get i s = Ok (Some v)) ->
  cfg_wfb c = true -> od_coversb od c = true ->
  c_cob c = Some cob -> c_tt c = Some tt -> forallb (in_odb (o_objs od)) (c_map c) = true ->
  look com 1 = Some (cob_word c cob) -> look com 2 = Some tt ->
  (forall v, c_inhibit c = Some v -> look com 3 = Some v) ->
  (forall v, c_event c = Some v -> look com 5 = Some v) ->
  (forall v, c_sync c = Some v -> look com 6 = Some v) ->
  look mp 0 = Some (zlen (c_map c)) ->
  (forall j e, nth_error (c_map c) j = Some e -> look mp (1 + Z.of_nat j) = Some (map_word e)) ->
  exists c', read_cfg get (o_objs od) com mp fresh_cfg [] = Ok (c', subscribe c' []) /\ same_config c c' cob tt.
Proof.
  intros Hne Hb Hget Hwf Hod Hcob Htt Hin L1 L2 L3 L5 L6 L0 LE.
  destruct (od_parts od c Hod) as (O1 & O2 & O3 & O5 & O6 & On).
  destruct (cfg_wfb_spec c cob Hwf Hcob) as (Hr & _ & _ & _ & _ & Hm & _).
  destruct (cob_word_decode c cob Hr) as (D1 & D2 & D3).
  assert (Gc : forall k o, opt_has od k o = true -> (forall v, o = Some v -> look com k = Some v) ->
                forall v, o = Some v -> get com k = Ok (Some v)).
  { intros k o Ho Hl v ->. apply Hget; [now rewrite Z.eqb_refl|now apply Hl]. }
  assert (Gm : forall k v, 0 <= k <= zlen (c_map c) -> look mp k = Some v -> get mp k = Ok (Some v)).
  { intros k v Hk. apply Hget. rewrite (proj2 (Z.eqb_neq mp com) Hne), Z.eqb_refl. unfold map_has. clear - Hk On. lia. }
  pose proof (Gc 3 _ O3 L3) as G3. pose proof (Gc 5 _ O5 L5) as G5. pose proof (Gc 6 _ O6 L6) as G6.
  eexists. split.
  - apply read_cfg_benign with (raw := cob_word c cob) (n := zlen (c_map c)) (m := c_map c); auto.
    + apply Hget; [now rewrite Z.eqb_refl|exact L1].
    + apply (Gc 2 _ O2); [intros v E|exact Htt]. congruence.
    + exact (Gm 0 _ (conj (Z.le_refl 0) (zlen_nonneg _)) L0).
    + unfold zlen. rewrite Nat2Z.id. apply (read_entries_spec get _ mp (c_map c) 1 []); auto.
      intros j e Hj. apply Gm; [|now apply LE].
      assert (j < length (c_map c))%nat by (apply nth_error_Some; congruence). unfold zlen. clear - H. lia.
  - unfold same_config. cbn [c_cob c_enabled c_rtr c_tt c_map c_inhibit c_event c_sync fresh_cfg].
    rewrite D1, D2, D3. do 5 (split; [reflexivity|]).
    destruct (Z.geb_spec tt 254) as [T|T]; split; intros H.
    + repeat split; intros v E; [rewrite (G3 v E)|rewrite (G5 v E)|rewrite (G6 v E)]; reflexivity.
    + now apply Z.lt_nge in H.
    + now apply Z.lt_nge in T.
    + now repeat split.
Qed.

(* the strict device, from any prior state, accepts every write of save() in the order given; the
   code (save_io) performs exactly the list save_writes against it and ends without error *)
Theorem save_accepted_in_order : forall d od com c r0 subs,
  d_mode d = MODE_STRICT -> is_com com = true ->
  cfg_wfb c = true -> od_coversb od c = true -> dev_coversb d r0 com c = true ->
  let mp := com + 0x200 in
  let ws := save_writes com mp c in
  run_writes d (r0, []) ws = ((apply_writes r0 ws, acc ws), None) /\
  save_io (log_write d) log_ul od com mp c subs (r0, []) =
    ((apply_writes r0 ws, acc ws), Ok (c, if c_enabled c then subscribe c subs else subs)).
Proof.
  intros d od com c r0 subs Hm Hc Hwf Hod Hdev mp ws.
  pose proof (save_all_accepted d com Hm Hc c r0 Hwf Hdev) as Ha.
  destruct (cfg_wfb_cob c Hwf) as [cob Hcob]. split.
  - exact (run_writes_accepted d ws r0 [] Ha).
  - exact (save_io_accepted d od com Hc c cob subs Hcob Hod r0 [] Ha).
Qed.

Definition is_param_write (com : Z) (w : write) : Prop := fst (fst w) = com /\ In (snd (fst w)) [2; 3; 5; 6].

Lemma opt_write_param com k o : In k [2; 3; 5; 6] -> Forall (is_param_write com) (opt_write com k o).
Proof. intros Hk. destruct o as [v|]; [|constructor]. constructor; [split; [reflexivity|exact Hk]|constructor]. Qed.

Theorem save_order : forall com mp c, cfg_wfb c = true ->
  exists cob params,
    c_cob c = Some cob /\
    let first := cob + 2 ^ 31 + (if c_rtr c then 0 else 2 ^ 30) in
    let last := cob + (if c_rtr c then 0 else 2 ^ 30) in
    save_writes com mp c =
      (com, 1, first) :: params ++ (mp, 0, 0) :: entry_writes mp 1 (c_map c) ++
      (mp, 0, zlen (c_map c)) :: (if c_enabled c then [(com, 1, last)] else []) /\
    Forall (is_param_write com) params /\
    Z.testbit first 31 = true /\ Z.testbit last 31 = false /\
    (forall j e, nth_error (c_map c) j = Some e ->
       nth_error (entry_writes mp 1 (c_map c)) j = Some (mp, 1 + Z.of_nat j, map_word e)).
Proof.
  intros com mp c Hwf. destruct (cfg_wfb_cob c Hwf) as [cob Hcob].
  destruct (cfg_wfb_spec c cob Hwf Hcob) as (Hr & _ & _ & _ & _ & Hm & _).
  destruct (flag_words c cob Hr) as (_ & _ & Bf & Bl).
  exists cob, (param_writes com c). split; [exact Hcob|]. cbn zeta. repeat split; auto.
  - unfold save_writes, final_writes. rewrite Hcob, first_word by exact Hr.
    destruct (c_enabled c); [rewrite last_word by exact Hr|]; reflexivity.
  - unfold param_writes. rewrite !Forall_app. repeat split; apply opt_write_param; cbn [In]; auto 6.
  - intros j e Hj. rewrite (entry_writes_nth mp (c_map c) 1 j e Hj).
    rewrite forallb_forall in Hm. now destruct (entry_word_wf e (Hm e (nth_error_In _ _ Hj))) as [-> _].
Qed.

(* the registers afterwards hold the CiA 301 encodings; nothing else changed *)
Theorem save_encodes : forall com c r0 cob, cfg_wfb c = true -> c_cob c = Some cob ->
  let mp := com + 0x200 in
  let r' := apply_writes r0 (save_writes com mp c) in
  let w := cob_word c cob in
  rget r' com 1 = Some w /\
  0 <= w < 2 ^ 32 /\ Z.testbit w 31 = negb (c_enabled c) /\ Z.testbit w 30 = negb (c_rtr c) /\ w mod 2 ^ 29 = cob /\
  (forall v, c_tt c = Some v -> rget r' com 2 = Some v) /\
  (forall v, c_inhibit c = Some v -> rget r' com 3 = Some v) /\
  (forall v, c_event c = Some v -> rget r' com 5 = Some v) /\
  (forall v, c_sync c = Some v -> rget r' com 6 = Some v) /\
  rget r' mp 0 = Some (zlen (c_map c)) /\
  (forall j e, nth_error (c_map c) j = Some e -> rget r' mp (1 + Z.of_nat j) = Some (map_word e)) /\
  (forall i s, i <> com -> i <> mp -> rget r' i s = rget r0 i s).
Proof.
  intros com c r0 cob Hwf Hcob mp r' w.
  destruct (cfg_wfb_spec c cob Hwf Hcob) as [Hr _].
  destruct (cob_word_bits c cob Hr) as (B0 & B1 & B2 & B3).
  pose proof (final_param com c r0 cob Hcob) as P.
  split; [exact (final_com1 com c r0 cob Hwf Hcob)|]. repeat split; try apply B0; auto.
  - intros v. apply (P 2). cbn; auto.
  - intros v. apply (P 3). cbn; auto.
  - intros v. apply (P 5). cbn; auto.
  - intros v. apply (P 6). cbn; auto 6.
  - exact (final_count com c r0 cob Hcob).
  - exact (final_entry com c r0 cob Hwf Hcob).
  - exact (final_frame com c r0 cob Hcob).
Qed.

(* a fresh node reads the same configuration back from those registers *)
Theorem read_after_save : forall od com c r0 cob tt,
  cfg_wfb c = true -> od_coversb od c = true ->
  c_cob c = Some cob -> c_tt c = Some tt -> forallb (in_odb (o_objs od)) (c_map c) = true ->
  let mp := com + 0x200 in
  let r' := apply_writes r0 (save_writes com mp c) in
  exists c', read_cfg (sdo_get od com mp r') (o_objs od) com mp fresh_cfg [] = Ok (c', subscribe c' []) /\
             same_config c c' cob tt.
Proof.
  intros od com c r0 cob tt Hwf Hod Hcob Htt Hin mp r'.
  destruct (save_encodes com c r0 cob Hwf Hcob) as (R1 & _ & _ & _ & _ & R2 & R3 & R5 & R6 & R0 & RE & _).
  apply (read_encoded od com mp _ (rget r')); auto; [unfold mp; lia| |].
  - intros i s. unfold sdo_get, benign. destruct (if i =? com then _ else _); [|reflexivity].
    now destruct (dev_read r' i s).
  - intros i s v Hp Hl. unfold sdo_get, dev_read. now rewrite Hp, Hl.
Qed.

Theorem subscribe_iff_enabled : forall c cob subs x, c_cob c = Some cob ->
  (In x (subscribe c subs) <-> In x subs \/ (c_enabled c = true /\ x = cob)).
Proof.
  intros c cob subs x Hcob. unfold subscribe. rewrite Hcob.
  pose proof (proj1 (zmem_In cob subs)) as Hz.
  destruct (c_enabled c); [destruct (zmem cob subs)|]; rewrite ?in_app_iff; cbn [In];
    intuition (subst; auto; discriminate).
Qed.

(* configuration taken from the dictionary (DCF value, else default) *)
Definition dict (vals : odvals) (i s : Z) : option Z :=
  match odv_find vals i s with Some (v, dflt) => od_pick v dflt | None => None end.

Theorem dcf_before_default : forall v dflt, od_pick (Some v) dflt = Some v /\ od_pick None dflt = dflt.
Proof. intros. split; reflexivity. Qed.

Theorem read_from_od : forall od com mp vals c cob tt,
  mp <> com -> cfg_wfb c = true -> od_coversb od c = true ->
  c_cob c = Some cob -> c_tt c = Some tt -> forallb (in_odb (o_objs od)) (c_map c) = true ->
  dict vals com 1 = Some (cob_word c cob) -> dict vals com 2 = Some tt ->
  (forall v, c_inhibit c = Some v -> dict vals com 3 = Some v) ->
  (forall v, c_event c = Some v -> dict vals com 5 = Some v) ->
  (forall v, c_sync c = Some v -> dict vals com 6 = Some v) ->
  dict vals mp 0 = Some (zlen (c_map c)) ->
  (forall j e, nth_error (c_map c) j = Some e -> dict vals mp (1 + Z.of_nat j) = Some (map_word e)) ->
  exists c', read_cfg (od_get od com mp vals) (o_objs od) com mp fresh_cfg [] = Ok (c', subscribe c' []) /\
             same_config c c' cob tt.
Proof.
  intros od com mp vals c cob tt Hne. apply read_encoded; [exact Hne| |].
  - intros i s. unfold od_get, benign. destruct (if i =? com then _ else _); [|reflexivity].
    now destruct (odv_find vals i s) as [[v dflt]|].
  - intros i s v Hp. unfold od_get, dict. rewrite Hp. destruct (odv_find vals i s) as [[x dflt]|]; congruence.
Qed.

(* every PDO number 1..512 of RPDO and TPDO names a communication / mapping object pair of CiA 301
   (proved against the regenerated offsets) *)
Theorem pdo_indices : forall tpdo n, pdo_number_ok n = true ->
  com_index tpdo n = (if tpdo : bool then 0x1800 else 0x1400) + (n - 1) /\
  map_index tpdo n = com_index tpdo n + 0x200 /\
  is_com (com_index tpdo n) = true /\ is_map (map_index tpdo n) = true.
Proof.
  intros tpdo n H. unfold pdo_number_ok, com_index, map_index, is_com, is_map in *.
  change PDO_MAPS_MAX with 512 in H.
  change TPDO_COM_OFFSET with 6144. change RPDO_COM_OFFSET with 5120.
  change TPDO_MAP_OFFSET with 6656. change RPDO_MAP_OFFSET with 5632.
  destruct tpdo; lia.
Qed.
