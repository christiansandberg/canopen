(* Source tie (DESIGN.md 4.3): the error-reset test of EmcyConsumer.on_emcy as translated from the CURRENT source text
   (Gen/SrcC16.v) equals the model (C16). *)
From Coq Require Import ZArith List.
From CV Require Import Gen.SrcC16 Model.Emcy.
Import ListNotations.
Open Scope Z_scope.

Theorem src_emcy_is_reset_eq code : src_emcy_is_reset code = is_reset_code code.
Proof. unfold src_emcy_is_reset, is_reset_code. cbv zeta. destruct (Z.land code 65280 =? 0); reflexivity. Qed.
