(* Proofs about Model/BlockDl.v and Model/BlockUl.v against Model/RefBlockServer.v (C12, C13).
   Each direction: an equation for what one step of the model does in a described state (send/write, read_tail/read),
   an invariant over client, server and the part of the payload delivered so far, one lemma that a step keeps it,
   and the caller's loop by induction.  The run without faults is the run with one lost frame where none is lost. *)
From Coq Require Import ZArith List Bool Lia.
From CV Require Import Base.Val Base.Bytes Gen.SdoTables Model.Crc Model.RefBlockServer Model.BlockDl Model.BlockUl
  Proofs.Crc_proofs.
Import ListNotations.
Open Scope Z_scope.

(* command-byte facts for sequence numbers 1..127 *)
Definition seq_facts (x : Z) : bool :=
  (Z.land x 127 =? x) && negb (Z.testbit x 7) && negb (x =? 128) &&
  (Z.lor x 128 =? x + 128) && (Z.land (x + 128) 127 =? x) && Z.testbit (x + 128) 7 && negb (x + 128 =? 128) &&
  (Z.land x 128 =? 0) && negb (Z.land (x + 128) 128 =? 0).

Lemma seq_bits x : 1 <= x <= 127 ->
  Z.land x 127 = x /\ Z.testbit x 7 = false /\ (x =? 128) = false /\ Z.lor x 128 = x + 128 /\
  Z.land (x + 128) 127 = x /\ Z.testbit (x + 128) 7 = true /\ (x + 128 =? 128) = false /\
  Z.land x 128 = 0 /\ (Z.land (x + 128) 128 =? 0) = false.
Proof.
  intros H. pose proof (range_forall seq_facts 1 127 ltac:(vm_compute; reflexivity) x ltac:(lia)) as F. unfold seq_facts in F.
  repeat (apply andb_prop in F; destruct F as [F ?]).
  repeat split; try lia.
  - destruct (Z.testbit x 7); [discriminate|reflexivity].
  - destruct (Z.testbit (x + 128) 7); [reflexivity|discriminate].
Qed.

(* command byte of the end request of a download and of the end frame of an upload, k unused bytes in the last segment *)
Definition end_facts (k : Z) : bool :=
  (Z.lor (Z.lor REQUEST_BLOCK_DOWNLOAD END_BLOCK_TRANSFER) (Z.shiftl k 2) =? 193 + 4 * k) &&
  (Z.land (193 + 4 * k) 227 =? 193) && (Z.land (193 + 4 * k) 224 =? 192) && (Z.land (193 + 4 * k) 3 =? 1) &&
  (Z.land (Z.shiftr (193 + 4 * k) 2) 7 =? k) && negb (193 + 4 * k =? 128).

Lemma end_bits k : 0 <= k <= 7 ->
  Z.lor (Z.lor REQUEST_BLOCK_DOWNLOAD END_BLOCK_TRANSFER) (Z.shiftl k 2) = 193 + 4 * k /\
  Z.land (193 + 4 * k) 227 = 193 /\ Z.land (193 + 4 * k) 224 = 192 /\ Z.land (193 + 4 * k) 3 = 1 /\
  Z.land (Z.shiftr (193 + 4 * k) 2) 7 = k /\ (193 + 4 * k =? 128) = false.
Proof.
  intros H. pose proof (range_forall end_facts 0 8 ltac:(vm_compute; reflexivity) k ltac:(lia)) as F.
  unfold end_facts in F. repeat (apply andb_prop in F; destruct F as [F ?]). repeat split; lia.
Qed.

(* command byte of an initiate request or response: [base] with the size-indicated and the CRC-supported flag *)
Lemma init_bits x base (s k : bool) : base = 160 \/ base = 192 -> x = base + (if s then 2 else 0) + (if k then 4 else 0) ->
  (x =? 128) = false /\ Z.land x 224 = base /\ Z.land x 3 = (if s then 2 else 0) /\ Z.testbit x 2 = k /\
  (Z.land x BLOCK_SIZE_SPECIFIED =? 0) = negb s /\ negb (Z.land x CRC_SUPPORTED =? 0) = k.
Proof. intros [-> | ->] ->; destruct s, k; repeat split. Qed.

Lemma pad8_full (l : list Z) : length l = 8%nat -> pad8 l = l.
Proof. intros H. unfold pad8. rewrite H. cbn. apply app_nil_r. Qed.

Lemma pad8_length (l : list Z) : (length l <= 8)%nat -> length (pad8 l) = 8%nat.
Proof. intros H. unfold pad8. rewrite app_length, repeat_length. lia. Qed.

Lemma pad8_cons c (d : list Z) : (length d <= 7)%nat -> pad8 (c :: d) = c :: d ++ repeat 0 (7 - length d).
Proof. intros H. unfold pad8. cbn [length app]. replace (8 - S (length d))%nat with (7 - length d)%nat by lia. reflexivity. Qed.

Lemma firstn_app_le {A} (n : nat) (a b : list A) : (n <= length a)%nat -> firstn n (a ++ b) = firstn n a.
Proof.
  intros H. rewrite firstn_app. replace (n - length a)%nat with 0%nat by lia. cbn [firstn]. apply app_nil_r.
Qed.

Definition len7 (ch : list Z) : Prop := length ch = 7%nat.

Lemma len7_zlen (l : list Z) : len7 l -> zlen l = 7.
Proof. intros H. unfold zlen. rewrite H. reflexivity. Qed.

Lemma seg_more (rest : list Z) : 7 < zlen rest ->
  len7 (firstn 7 rest) /\ skipn 7 rest <> [] /\ zlen (skipn 7 rest) = zlen rest - 7.
Proof.
  unfold zlen, len7. intros H. rewrite firstn_length, skipn_length. repeat split; try lia.
  intros E. apply (f_equal (@length Z)) in E. rewrite skipn_length in E. cbn in E. lia.
Qed.

Lemma seg_last (rest : list Z) : rest <> [] -> zlen rest <= 7 ->
  firstn 7 rest = rest /\ skipn 7 rest = [] /\ (1 <= length rest <= 7)%nat.
Proof.
  unfold zlen. intros Hne H. split; [apply firstn_all2; lia|]. split; [apply skipn_all2; lia|].
  destruct rest; [contradiction|cbn [length] in *; lia].
Qed.

Lemma zlen_concat7 (l : list (list Z)) : Forall len7 l -> zlen (concat l) = 7 * zlen l.
Proof.
  induction 1 as [|x r Hx Hr IH]; [reflexivity|]. cbn [concat]. rewrite zlen_app, IH, zlen_cons, (len7_zlen x Hx). lia.
Qed.

Lemma concat_snoc {A} (l : list (list A)) x : concat (l ++ [x]) = concat l ++ x.
Proof. rewrite concat_app. cbn [concat]. now rewrite app_nil_r. Qed.

Lemma read_response_ok {S} (s : S) (fr : frame) q log : (fb fr 0 =? 128) = false ->
  read_response (mknet s (fr :: q) log) = (Ok fr, mknet s q log).
Proof. intros H. unfold read_response. cbn [n_q n_srv n_log]. change RESPONSE_ABORTED with 128. rewrite H. reflexivity. Qed.

Definition only_dropc (faults : list fault) : Prop :=
  Forall (fun f => match f with FDropC _ => True | _ => False end) faults.

Lemma mangle1_dropc faults j frs : only_dropc faults -> mangle1 faults j frs = frs.
Proof.
  induction 1 as [|f r Hf Hr IH]; cbn [mangle1]; [reflexivity|].
  destruct f; try contradiction. exact IH.
Qed.

Lemma mangle_dropc faults ns outs : only_dropc faults -> mangle faults ns outs = outs.
Proof.
  intros H. revert ns. induction outs as [|fr r IH]; intros ns; cbn [mangle]; [reflexivity|].
  rewrite mangle1_dropc by assumption. rewrite IH. reflexivity.
Qed.

(* C12: block download against the reference server *)
Section Download.
  Context (P : list Z) (faults : list fault) (crc_en cc : bool) (mux : list Z)
          (store0 : option (list Z)) (bad0 : Z) (aborted0 : bool).
  Context (Hfaults : only_dropc faults).

  Notation sys := (faulty dl_srv).
  Notation NetD := (@net (fstate dsrv)).

  (* CL, SV, NW: the client's stream, the server and the network between them (queue empty) in the sub-block phase,
     as functions of the fields that change; the others are the section's *)
  Definition CL (pos seqno crc : Z) (cur : list (list Z)) (retx : bool) (B : Z) : dl :=
    mkdl (Some (zlen P)) pos false seqno crc 0 cur retx B crc_en false.
  Definition SV (blks : list Z) (B j0 : Z) (buf sbase : list Z) (lost : bool) : dsrv :=
    mkds 1 blks crc_en cc true (zlen P) mux B j0 buf sbase false lost store0 bad0 aborted0.
  Definition NW (sv : dsrv) (nc ns : Z) (log : list frame) : NetD := mknet (mkfs sv nc ns faults) [] log.

  (* the same records with the flag [e] = "the segment with the c bit has been sent / taken in sequence":
     [CL] is [CLx false 0], [SV] is [SVx false] *)
  Definition CLx (e : bool) (last pos seqno crc : Z) (cur : list (list Z)) (retx : bool) (B : Z) : dl :=
    mkdl (Some (zlen P)) pos e seqno crc last cur retx B crc_en false.
  Definition SVx (e : bool) (blks : list Z) (B j0 : Z) (buf sbase : list Z) (lost : bool) : dsrv :=
    mkds (if e then 2 else 1) blks crc_en cc true (zlen P) mux B j0 buf sbase e lost store0 bad0 aborted0.

  (* [j0] segments of the sub-block have reached the server in sequence; it takes segment [seqno + 1] iff that
     arrives and none before it is missing: [a] *)
  Lemma srv_segment blks B j0 buf sbase l seqno (last : bool) data :
    0 <= seqno < 127 -> (length data <= 7)%nat ->
    let a := negb l && (j0 =? seqno) in
    let j1 := if a then seqno + 1 else j0 in
    let buf1 := if a then buf ++ data ++ repeat 0 (7 - length data) else buf in
    dl_srv (SV blks B j0 buf sbase (negb (j0 =? seqno))) l (pad8 ((seqno + 1 + (if last then 128 else 0)) :: data)) =
    if (seqno + 1 =? B) || last then
      (SVx (a && last) (snd (next_blk blks)) (fst (next_blk blks)) 0 [] (sbase ++ buf1) false,
       [[162; j1; fst (next_blk blks); 0; 0; 0; 0; 0]])
    else
      (SV blks B j1 buf1 sbase (negb a), []).
  Proof.
    intros Hseq Hd a j1 buf1.
    destruct (seq_bits (seqno + 1) ltac:(lia)) as (L127 & T7 & N128 & LOR & L127' & T7' & N128' & _).
    unfold dl_srv. rewrite pad8_length by (cbn [length]; lia). cbn [Nat.eqb negb].
    rewrite pad8_cons by assumption. unfold fb. cbn [nth SV ds_state Z.eqb Pos.eqb].
    assert (Hfirst : firstn 7 (skipn 1 ((seqno + 1 + (if last then 128 else 0)) :: data ++ repeat 0 (7 - length data)))
                     = data ++ repeat 0 (7 - length data)).
    { cbn [skipn]. apply firstn_all2. rewrite app_length, repeat_length. lia. }
    assert (Hcmd : (seqno + 1 + (if last then 128 else 0) =? 128) = false) by (destruct last; lia).
    rewrite Hcmd. unfold ds_segment, fb. cbn [nth ds_ackseq ds_lost ds_buf ds_lastflag ds_bad ds_blksize ds_blks
      ds_crc_en ds_cc ds_sizeind ds_size ds_mux ds_committed ds_store ds_aborted SV].
    rewrite Hfirst.
    assert (Hl : Z.land (seqno + 1 + (if last then 128 else 0)) 127 = seqno + 1) by (destruct last; [assumption|now rewrite Z.add_0_r]).
    assert (Ht : Z.testbit (seqno + 1 + (if last then 128 else 0)) 7 = last) by (destruct last; [assumption|now rewrite Z.add_0_r]).
    rewrite Hl, Ht.
    replace (negb l && (seqno + 1 =? j0 + 1) && negb (negb (j0 =? seqno))) with a
      by (unfold a; destruct l, (j0 =? seqno) eqn:E; cbn [negb andb]; lia).
    replace (a || l || negb (j0 =? seqno)) with true by (unfold a; destruct l, (j0 =? seqno); reflexivity).
    replace (if a then negb (j0 =? seqno) else true) with (negb a) by (unfold a; destruct l, (j0 =? seqno); reflexivity).
    destruct (next_blk blks) as [nb blks'] eqn:Enb. cbn [fst snd].
    destruct ((seqno + 1 =? B) || last) eqn:Eend.
    - fold j1 buf1.
      replace ((if a then last else false) && (j1 =? seqno + 1)) with (a && last); [reflexivity|].
      unfold j1. destruct a; [rewrite Z.eqb_refl; symmetry; apply andb_true_r|reflexivity].
    - apply orb_false_elim in Eend. destruct Eend as [_ El]. subst last.
      unfold SV. fold j1 buf1. destruct a; reflexivity.
  Qed.

  Lemma send_request_NW sv nc ns log fr sv' outs :
    dl_srv sv (lostb faults (nc + 1)) fr = (sv', outs) ->
    send_request sys (NW sv nc ns log) fr =
    mknet (mkfs sv' (nc + 1) (ns + zlen outs) faults) outs (rev (map (cons 1) outs) ++ (0 :: fr) :: log).
  Proof.
    intros H. unfold send_request, NW, faulty. cbn [n_srv n_q n_log f_inner f_nc f_ns f_faults].
    rewrite H, mangle_dropc by assumption. reflexivity.
  Qed.

  (* send(): one segment, [e] = it is the last one; the server takes it iff [a] *)
  Lemma send_eq rec pos seqno crc cur retx B blks j0 buf sbase nc ns log data (e : bool) :
    0 <= j0 <= seqno -> seqno < B -> B <= 127 -> (length data <= 7)%nat -> (e = false -> len7 data) ->
    let a := negb (lostb faults (nc + 1)) && (j0 =? seqno) in
    let crc' := if crc_en && negb retx then crc_from crc data else crc in
    let nb := fst (next_blk blks) in
    let blks' := snd (next_blk blks) in
    let last := if e then zlen data else 0 in
    let bl := skipn (Z.to_nat j0) (cur ++ [data]) in
    exists log',
    send sys rec (CL pos seqno crc cur retx B) (NW (SV blks B j0 buf sbase (negb (j0 =? seqno))) nc ns log) data e =
    if (seqno + 1 =? B) || e then
      if a then
        (Ok tt, CLx e last (pos + zlen data) 0 crc' [] retx nb,
         NW (SVx e blks' nb 0 [] (sbase ++ buf ++ data ++ repeat 0 (7 - length data)) false) (nc + 1) (ns + 1) log')
      else
        (* _retransmit: back to what the server holds, and the segments [bl] once more *)
        retransmit_loop rec bl (CLx e last (pos + zlen data - zlen bl * 7) 0 crc' [] true nb)
                        (NW (SV blks' nb 0 [] (sbase ++ buf) false) (nc + 1) (ns + 1) log')
    else
      (Ok tt, CLx e last (pos + zlen data) (seqno + 1) crc' (cur ++ [data]) retx B,
       NW (SV blks B (if a then seqno + 1 else j0) (if a then buf ++ data else buf) sbase (negb a)) (nc + 1) ns log').
  Proof.
    intros Hj HB HB127 Hd He a crc' nb blks' last bl.
    unfold send. cbn [CL d_seqno d_done d_blksize d_last d_crcsup d_retx d_crc d_size d_pos d_cur d_closed].
    fold crc' last.
    destruct (seq_bits (seqno + 1) ltac:(lia)) as (_ & _ & _ & LOR & _).
    replace (if e then Z.lor (seqno + 1) NO_MORE_BLOCKS else seqno + 1) with (seqno + 1 + (if e then 128 else 0))
      by (destruct e; [symmetry; exact LOR|apply Z.add_0_r]).
    replace (if e then true else false) with e by (destruct e; reflexivity).
    pose proof (srv_segment blks B j0 buf sbase (lostb faults (nc + 1)) seqno e data ltac:(lia) Hd) as Hs.
    cbn zeta in Hs. fold a nb blks' in Hs.
    destruct ((seqno + 1 =? B) || e) eqn:Eend.
    - rewrite (send_request_NW _ nc ns log _ _ _ Hs).
      replace ((if e then seqno + 1 else B) <=? seqno + 1) with true by (destruct e; lia).
      unfold block_ack. rewrite read_response_ok by reflexivity. cbv beta iota zeta.
      cbn [fb nth]. change (Z.land 162 224 =? RESPONSE_BLOCK_DOWNLOAD) with true.
      change (Z.land 162 3 =? BLOCK_TRANSFER_RESPONSE) with true. cbn [negb].
      cbn [d_blksize].
      change (zlen [[162; (if a then seqno + 1 else j0); nb; 0; 0; 0; 0; 0]]) with 1.
      destruct a; cbn [andb]; eexists.
      + replace (negb (seqno + 1 =? (if e then seqno + 1 else B))) with false by (destruct e; lia).
        cbn [d_size d_pos d_done d_crc d_last d_retx d_crcsup d_closed]. reflexivity.
      + replace (negb (j0 =? (if e then seqno + 1 else B))) with true by (destruct e; lia).
        reflexivity.
    - apply orb_false_elim in Eend. destruct Eend as [EB ->]. specialize (He eq_refl).
      rewrite He, Nat.sub_diag in Hs. cbn [repeat] in Hs. rewrite app_nil_r in Hs.
      rewrite (send_request_NW _ nc ns log _ _ _ Hs).
      replace (B <=? seqno + 1) with false by lia.
      eexists. unfold NW. cbn [zlen length]. rewrite Z.add_0_r. reflexivity.
  Qed.

  (* write(): which send() it performs, given what is left of the payload *)
  Lemma write_eq d pre rest seqno crc cur retx B w b :
    P = pre ++ rest -> rest <> [] -> firstn 7 b = firstn 7 rest ->
    write sys (S d) (CL (zlen pre) seqno crc cur retx B) w b =
    match send sys (write sys d) (CL (zlen pre) seqno crc cur retx B) w (firstn 7 rest) (zlen rest <=? 7) with
    | (Ok _, c', w') => (Ok (Some (zlen (firstn 7 rest))), c', w')
    | (Err k, c', w') => (Err k, c', w')
    | (Abort a, c', w') => (Abort a, c', w')
    end.
  Proof.
    intros HP Hne Hb. cbn [write]. unfold write_body. cbn [CL d_done d_size d_pos]. rewrite Hb.
    assert (HlenP : zlen P = zlen pre + zlen rest) by (rewrite HP; apply zlen_app).
    destruct (Z.leb_spec (zlen rest) 7) as [Hs|Hl].
    - destruct (seg_last rest Hne Hs) as (-> & _).
      replace (zlen P <=? zlen pre + zlen rest) with true by lia. reflexivity.
    - destruct (seg_more rest Hl) as (H7 & _). rewrite (len7_zlen _ H7).
      replace (zlen P <=? zlen pre + 7) with false by lia. reflexivity.
  Qed.

  (* block sizes announced by a conformant server *)
  Definition blks_ok (blks : list Z) : Prop := blks <> [] /\ Forall (fun b => 1 <= b <= 127) blks.

  Lemma next_blk_ok blks : blks_ok blks ->
    1 <= fst (next_blk blks) <= 127 /\ blks_ok (snd (next_blk blks)).
  Proof.
    intros [Hne Hall]. destruct blks as [|a [|b r]]; [contradiction| |]; cbn [next_blk fst snd];
      inversion Hall; subst; (split; [assumption|]); (split; [discriminate|assumption]).
  Qed.

  (* between two write() calls inside a sub-block: [cur] are its segments sent so far, the first [j0] of them have
     reached the server in sequence (one after them is missing iff j0 < zlen cur), [sbase] is what the server committed
     before; [pre] is the part of the payload the client has sent, [nc] the number of frames it has sent *)
  Definition XS (crc : Z) (cur : list (list Z)) (retx : bool) (B : Z) (blks : list Z) (j0 : Z) (sbase : list Z) (nc : Z)
             (pre : list Z) (c : dl) (w : NetD) : Prop :=
    exists ns log,
      c = CL (zlen pre) (zlen cur) crc cur retx B /\
      w = NW (SV blks B j0 (concat (firstn (Z.to_nat j0) cur)) sbase (negb (j0 =? zlen cur))) nc ns log /\
      sbase ++ concat cur = pre /\ 0 <= j0 <= zlen cur /\ zlen cur < B /\ B <= 127 /\ blks_ok blks /\ Forall len7 cur.

  Lemma XS_new crc retx nb blks' pre nc ns log : 1 <= nb <= 127 -> blks_ok blks' ->
    XS crc [] retx nb blks' 0 pre nc pre (CL (zlen pre) 0 crc [] retx nb) (NW (SV blks' nb 0 [] pre false) nc ns log).
  Proof.
    intros Hnb Hb. exists ns, log. cbn [concat]. rewrite app_nil_r. change (zlen (@nil (list Z))) with 0.
    repeat (split; [first [reflexivity | lia | assumption]|]). constructor.
  Qed.

  (* the segment with the c bit has been acknowledged: the server holds the payload and the padding of that segment *)
  Definition FIN (nc0 crc : Z) (retx : bool) (c : dl) (w : NetD) : Prop :=
    exists (data : list Z) nb blks' nc ns log,
      (1 <= length data <= 7)%nat /\ nc0 <= nc /\
      c = CLx true (zlen data) (zlen P) 0 crc [] retx nb /\
      w = NW (SVx true blks' nb 0 [] (P ++ repeat 0 (7 - length data)) false) nc ns log.

  Lemma FIN_weaken n0 n1 crc retx c w : n0 <= n1 -> FIN n1 crc retx c w -> FIN n0 crc retx c w.
  Proof.
    intros H (data & nb & blks' & nc & ns & log & H1 & H2 & H3). exists data, nb, blks', nc, ns, log.
    split; [exact H1|]. split; [lia|exact H3].
  Qed.

  (* what a write() call with [rest] still to go leaves behind: [Inv] after a segment that is not the last one,
     [Fin] after the last one; [E] holds if it fails *)
  Definition wpost (Inv : list Z -> dl -> NetD -> Prop) (Fin : dl -> NetD -> Prop) (E : Prop) (pre rest : list Z)
             (r : R (option Z)) : Prop :=
    match r with
    | (Ok (Some n), c', w') =>
        n = zlen (firstn 7 rest) /\ (if 7 <? zlen rest then Inv (pre ++ firstn 7 rest) c' w' else Fin c' w')
    | (Ok None, _, _) => False
    | _ => E
    end.

  Lemma wpost_more (Inv : list Z -> dl -> NetD -> Prop) Fin (E : Prop) pre rest c' w' :
    7 < zlen rest -> Inv (pre ++ firstn 7 rest) c' w' ->
    wpost Inv Fin E pre rest (Ok (Some (zlen (firstn 7 rest))), c', w').
  Proof. intros H HI. cbn [wpost]. replace (7 <? zlen rest) with true by lia. split; [reflexivity|exact HI]. Qed.

  Lemma wpost_last Inv (Fin : dl -> NetD -> Prop) (E : Prop) pre rest c' w' : zlen rest <= 7 -> Fin c' w' ->
    wpost Inv Fin E pre rest (Ok (Some (zlen (firstn 7 rest))), c', w').
  Proof. intros H HF. cbn [wpost]. replace (7 <? zlen rest) with false by lia. split; [reflexivity|exact HF]. Qed.

  (* [rec], a write() of some depth, keeps [Inv] whatever it is given of the payload that is left *)
  Definition keeps (rec : dl -> NetD -> list Z -> R (option Z)) (Inv : list Z -> dl -> NetD -> Prop) Fin E : Prop :=
    forall pre rest c w b, P = pre ++ rest -> rest <> [] -> firstn 7 b = firstn 7 rest -> Inv pre c w ->
                           wpost Inv Fin E pre rest (rec c w b).

  Definition retx_off (c : dl) : dl :=
    mkdl (d_size c) (d_pos c) (d_done c) (d_seqno c) (d_crc c) (d_last c) (d_cur c) false (d_blksize c) (d_crcsup c) (d_closed c).

  (* the retransmission loop over full segments that are followed by more payload, for any write() that keeps [Inv] *)
  Lemma retx_loop_inv rec Inv Fin E : keeps rec Inv Fin E ->
    forall bl pre1 rest1 c w,
      P = pre1 ++ concat bl ++ rest1 -> rest1 <> [] -> Forall len7 bl -> Inv pre1 c w ->
      match retransmit_loop rec bl c w with
      | (Ok _, c', w') => exists c0, Inv (pre1 ++ concat bl) c0 w' /\ c' = retx_off c0
      | _ => E
      end.
  Proof.
    intros Hrec. induction bl as [|b r IH]; intros pre1 rest1 c w HP Hne Hbl HI.
    - cbn [retransmit_loop concat]. rewrite app_nil_r. exists c. split; [exact HI|reflexivity].
    - apply Forall_cons_iff in Hbl. destruct Hbl as [Hb Hr]. cbn [retransmit_loop concat] in *. rewrite <- app_assoc in HP.
      pose proof (zlen_nonneg (concat r)) as H0.
      assert (Hrest1 : 0 < zlen rest1) by (destruct rest1; [contradiction|rewrite zlen_cons; pose proof (zlen_nonneg rest1); lia]).
      assert (Hfb : firstn 7 (b ++ concat r ++ rest1) = b) by (unfold len7 in Hb; rewrite firstn_app_le by lia; apply firstn_all2; lia).
      assert (Hne2 : b ++ concat r ++ rest1 <> []) by (destruct b; [discriminate Hb|discriminate]).
      pose proof (Hrec pre1 _ c w b HP Hne2 ltac:(rewrite Hfb; apply firstn_all2; unfold len7 in Hb; lia) HI) as Hw.
      destruct (rec c w b) as [[[[n|]|k|x] c'] w']; cbn [wpost] in Hw; try exact Hw; [|contradiction].
      destruct Hw as (_ & Hw). rewrite Hfb in Hw.
      replace (7 <? zlen (b ++ concat r ++ rest1)) with true in Hw by (rewrite !zlen_app, (len7_zlen b Hb); lia).
      rewrite app_assoc. apply (IH _ rest1); [rewrite <- app_assoc; exact HP|assumption..].
  Qed.

  (* one write() call in a state [XS]: what is to be shown of each way it can go for the call to keep [Inv].
     The frame it sends is taken by the server iff [a].  If it is not and the sub-block ends with it, the server
     acknowledges up to j0 only: the client goes back to what the server holds, [pre1], and sends the rest of the
     sub-block once more through write() one level down, which has to keep some [Inv1] of its own *)
  Lemma write_step d crc cur retx B blks j0 sbase nc pre rest c w b
        (Inv : list Z -> dl -> NetD -> Prop) (Fin : dl -> NetD -> Prop) (E : Prop) :
    P = pre ++ rest -> rest <> [] -> firstn 7 b = firstn 7 rest ->
    XS crc cur retx B blks j0 sbase nc pre c w -> forall l, lostb faults (nc + 1) = l ->
    let chunk := firstn 7 rest in
    let a := negb l && (j0 =? zlen cur) in
    let crc' := if crc_en && negb retx then crc_from crc chunk else crc in
    let nb := fst (next_blk blks) in
    let blks' := snd (next_blk blks) in
    let pre1 := sbase ++ concat (firstn (Z.to_nat j0) cur) in
    (7 < zlen rest -> zlen cur + 1 < B -> forall c' w',
       XS crc' (cur ++ [chunk]) retx B blks (if a then zlen cur + 1 else j0) sbase (nc + 1) (pre ++ chunk) c' w' ->
       Inv (pre ++ chunk) c' w') ->
    (7 < zlen rest -> zlen cur + 1 = B -> a = true -> forall c' w',
       XS crc' [] retx nb blks' 0 (pre ++ chunk) (nc + 1) (pre ++ chunk) c' w' -> Inv (pre ++ chunk) c' w') ->
    (7 < zlen rest -> zlen cur + 1 = B -> a = false -> exists Inv1 Fin1,
       keeps (write sys d) Inv1 Fin1 E /\
       (forall c1 w1, XS crc' [] true nb blks' 0 pre1 (nc + 1) pre1 c1 w1 -> Inv1 pre1 c1 w1) /\
       (forall c0 w', Inv1 (pre ++ chunk) c0 w' -> Inv (pre ++ chunk) (retx_off c0) w')) ->
    (zlen rest <= 7 -> a = true -> forall c' w', FIN (nc + 1) crc' retx c' w' -> Fin c' w') ->
    (zlen rest <= 7 -> a = false -> E) ->
    wpost Inv Fin E pre rest (write sys (S d) c w b).
  Proof.
    intros HP Hne Hb (ns & log & -> & -> & Hpre & Hj & HB & HB127 & Hblks & Hcur) l <- chunk a crc' nb blks' pre1.
    (* the five premises stay in the goal until it is known which one applies: lia is slow with them in the context *)
    destruct (next_blk_ok blks Hblks) as [Hnb Hblks'].
    assert (Hlencur : Z.to_nat (zlen cur) = length cur) by (unfold zlen; lia).
    pose proof (zlen_nonneg cur) as Hs0.
    assert (Ha : a = true -> j0 = zlen cur) by (unfold a; lia).
    assert (Hbuf : a = true -> concat (firstn (Z.to_nat j0) cur) = concat cur).
    { intros E1. rewrite (Ha E1), Hlencur, firstn_all. reflexivity. }
    rewrite (write_eq d pre rest _ _ _ _ _ _ _ HP Hne Hb). fold chunk.
    destruct (send_eq (write sys d) (zlen pre) (zlen cur) crc cur retx B blks j0 (concat (firstn (Z.to_nat j0) cur)) sbase
                nc ns log chunk (zlen rest <=? 7) Hj HB HB127 (firstn_le_length 7 rest)
                (fun E => proj1 (seg_more rest ltac:(lia)))) as [log' ->].
    fold a crc' nb blks' pre1.
    destruct (Z.le_gt_cases (zlen rest) 7) as [Hshort|Hlong].
    - destruct (seg_last rest Hne Hshort) as (Hf & _ & Hlen). fold chunk in Hf.
      replace (zlen rest <=? 7) with true by lia. rewrite orb_true_r.
      destruct a eqn:Ea.
      + intros _ _ _ Klast _. apply (wpost_last _ _ _ _ _ _ _ Hshort), (Klast Hshort eq_refl). clear Klast.
        exists chunk, nb, blks', (nc + 1), (ns + 1), log'.
        split; [rewrite Hf; lia|]. split; [lia|].
        replace (zlen pre + zlen chunk) with (zlen P) by (rewrite Hf, HP, zlen_app; reflexivity).
        split; [reflexivity|]. rewrite (Hbuf eq_refl), app_assoc, Hpre, app_assoc, Hf, <- HP. reflexivity.
      + (* the stream is marked done already, so the write() that is to send the segment again fails *)
        destruct (skipn (Z.to_nat j0) (cur ++ [chunk])) as [|b0 r0] eqn:E0.
        { apply (f_equal (@length _)) in E0. rewrite skipn_length, app_length in E0. cbn in E0. unfold zlen in *. lia. }
        intros _ _ _ _ Klost. destruct d; exact (Klost Hshort eq_refl).
    - destruct (seg_more rest Hlong) as (H7 & Hne' & _). fold chunk in H7.
      replace (zlen rest <=? 7) with false by lia. rewrite orb_false_r.
      assert (Hzp : zlen pre + zlen chunk = zlen (pre ++ chunk)) by (symmetry; apply zlen_app).
      assert (Hzc : zlen cur + 1 = zlen (cur ++ [chunk])) by (rewrite zlen_app; reflexivity).
      assert (Hcur' : Forall len7 (cur ++ [chunk])) by (apply Forall_app; split; [assumption|repeat constructor; exact H7]).
      assert (Hpre' : sbase ++ concat (cur ++ [chunk]) = pre ++ chunk) by (rewrite concat_snoc, app_assoc, Hpre; reflexivity).
      rewrite Hzp.
      destruct (Z.ltb_spec (zlen cur + 1) B) as [Hmid|Hedge].
      + replace (zlen cur + 1 =? B) with false by lia.
        intros Kmid _ _ _ _. apply (wpost_more _ _ _ _ _ _ _ Hlong), (Kmid Hlong Hmid). clear Kmid. exists ns, log'. rewrite <- Hzc.
        split; [reflexivity|]. split.
        { destruct a eqn:Ea.
          - replace (Z.to_nat (zlen cur + 1)) with (length (cur ++ [chunk])) by (rewrite app_length; unfold zlen; cbn; lia).
            rewrite firstn_all, concat_snoc, (Hbuf eq_refl), Z.eqb_refl. reflexivity.
          - rewrite firstn_app_le by (unfold zlen in *; lia). replace (j0 =? zlen cur + 1) with false by lia. reflexivity. }
        split; [exact Hpre'|]. split; [destruct a; lia|]. split; [lia|]. split; [lia|]. split; assumption.
      + assert (HeB : zlen cur + 1 = B) by lia. replace (zlen cur + 1 =? B) with true by lia.
        destruct a eqn:Ea.
        * intros _ Kedge _ _ _. apply (wpost_more _ _ _ _ _ _ _ Hlong), (Kedge Hlong HeB eq_refl). rewrite H7, Nat.sub_diag. cbn [repeat].
          rewrite app_nil_r, (Hbuf eq_refl), app_assoc, Hpre.
          apply XS_new; assumption.
        * intros _ _ Kretx _ _. destruct (Kretx Hlong HeB eq_refl) as (Inv1 & Fin1 & Krec & Kstart & Kend).
          set (bl := skipn (Z.to_nat j0) (cur ++ [chunk])).
          assert (Hbl : Forall len7 bl).
          { rewrite <- (firstn_skipn (Z.to_nat j0) (cur ++ [chunk])) in Hcur'. apply Forall_app in Hcur'. apply Hcur'. }
          assert (Hsplit : pre ++ chunk = pre1 ++ concat bl).
          { unfold pre1, bl. rewrite <- (firstn_app_le (Z.to_nat j0) cur [chunk]) by (unfold zlen in *; lia).
            rewrite <- app_assoc, <- concat_app, firstn_skipn. symmetry. exact Hpre'. }
          assert (HP1 : P = pre1 ++ concat bl ++ skipn 7 rest).
          { rewrite app_assoc, <- Hsplit, <- app_assoc. unfold chunk. rewrite firstn_skipn. exact HP. }
          replace (zlen (pre ++ chunk) - zlen bl * 7) with (zlen pre1) by (rewrite Hsplit, zlen_app, (zlen_concat7 bl Hbl); lia).
          pose proof (retx_loop_inv (write sys d) Inv1 Fin1 E Krec bl pre1 (skipn 7 rest) _ _ HP1 Hne' Hbl
                        (Kstart _ _ (XS_new crc' true nb blks' pre1 (nc + 1) (ns + 1) log' Hnb Hblks'))) as HL.
          change (CLx false _ (zlen pre1) 0 crc' [] true nb) with (CL (zlen pre1) 0 crc' [] true nb).
          destruct (retransmit_loop (write sys d) bl _ _) as [[[u|k|x] c'] w']; [|exact HL..].
          destruct HL as (c0 & HI & ->). rewrite <- Hsplit in HI. exact (wpost_more _ _ _ _ _ _ _ Hlong (Kend _ _ HI)).
  Qed.

  (* [XS] with its parameters hidden, so that it has the type of an [Inv] of [keeps]; of [nc] a lower bound is kept *)
  Definition GS (nc0 : Z) (pre : list Z) (c : dl) (w : NetD) : Prop :=
    exists seqno crc cur retx B blks j0 sbase nc ns log,
      c = CL (zlen pre) seqno crc cur retx B /\
      w = NW (SV blks B j0 (concat (firstn (Z.to_nat j0) cur)) sbase (negb (j0 =? seqno))) nc ns log /\
      sbase ++ concat cur = pre /\ seqno = zlen cur /\ 0 <= j0 <= seqno /\ seqno < B /\ B <= 127 /\
      blks_ok blks /\ Forall len7 cur /\ nc0 <= nc.

  Lemma GS_XS nc0 pre c w :
    GS nc0 pre c w <-> exists crc cur retx B blks j0 sbase nc, XS crc cur retx B blks j0 sbase nc pre c w /\ nc0 <= nc.
  Proof.
    split.
    - intros (seqno & crc & cur & retx & B & blks & j0 & sbase & nc & ns & log & H1 & H2 & H3 & -> & H5 & H6 & H7 & H8 & H9 & H10).
      exists crc, cur, retx, B, blks, j0, sbase, nc. split; [exists ns, log; repeat (split; [assumption|])|]; assumption.
    - intros (crc & cur & retx & B & blks & j0 & sbase & nc & (ns & log & H1 & H2 & H3 & H5 & H6 & H7 & H8 & H9) & H10).
      exists (zlen cur), crc, cur, retx, B, blks, j0, sbase, nc, ns, log.
      repeat (split; [first [assumption | reflexivity]|]). assumption.
  Qed.

  Lemma GS_weaken n0 n1 pre c w : n0 <= n1 -> GS n1 pre c w -> GS n0 pre c w.
  Proof.
    rewrite !GS_XS. intros H (crc & cur & retx & B & blks & j0 & sbase & nc & HX & Hnc).
    exists crc, cur, retx, B, blks, j0, sbase, nc. split; [exact HX|lia].
  Qed.

  Lemma GS_retx_off nc0 pre c w : GS nc0 pre c w -> GS nc0 pre (retx_off c) w.
  Proof.
    intros (seqno & crc & cur & retx & B & blks & j0 & sbase & nc & ns & log & -> & H).
    exists seqno, crc, cur, false, B, blks, j0, sbase, nc, ns, log. split; [reflexivity|exact H].
  Qed.

  Definition FINS (nc0 : Z) (c : dl) (w : NetD) : Prop := exists crc retx, FIN nc0 crc retx c w.

  (* whichever client frames are lost, write() keeps [GS] while it returns normally (it may fail) *)
  Lemma write_safe (nc0 : Z) : forall d, keeps (write sys d) (GS nc0) (FINS nc0) True.
  Proof.
    induction d as [|d IH]; intros pre rest c w b HP Hne Hb HG; [exact I|].
    apply GS_XS in HG. destruct HG as (crc & cur & retx & B & blks & j0 & sbase & nc & HX & Hnc).
    assert (HGS : forall crc' cur' retx' B' blks' j0' sbase' pre' c' w',
              XS crc' cur' retx' B' blks' j0' sbase' (nc + 1) pre' c' w' -> GS nc0 pre' c' w').
    { intros. apply GS_XS. eexists _, _, _, _, _, _, _, _. split; [eassumption|lia]. }
    apply (write_step d _ _ _ _ _ _ _ _ pre rest c w b (GS nc0) (FINS nc0) True HP Hne Hb HX _ eq_refl).
    - intros _ _ c' w'. apply HGS.
    - intros _ _ _ c' w'. apply HGS.
    - intros _ _ _. exists (GS nc0), (FINS nc0). split; [exact IH|]. split; [intros c1 w1; apply HGS|intros c0 w'; apply GS_retx_off].
    - intros _ _ c' w' HF. eexists _, _. apply (FIN_weaken nc0 (nc + 1)); [lia|exact HF].
    - intros _ _. exact I.
  Qed.

  (* the caller's loop over write(), for any write() that keeps [Inv] *)
  Lemma write_all_loop Inv Fin E depth : keeps (write sys depth) Inv Fin E ->
    forall fuel pre rest c w, P = pre ++ rest -> rest <> [] -> (length rest <= fuel)%nat -> Inv pre c w ->
    match write_all sys fuel depth c w rest with
    | (Ok _, c', w') => Fin c' w'
    | _ => E
    end.
  Proof.
    intros Hw. induction fuel as [|f IH]; intros pre rest c w HP Hne Hfuel HI.
    { destruct rest; [contradiction|cbn in Hfuel; lia]. }
    specialize (Hw pre rest c w rest HP Hne eq_refl HI).
    destruct rest as [|x0 rest0] eqn:Erest; [contradiction|]. rewrite <- Erest in *. clear Hne.
    replace (write_all sys (S f) depth c w rest) with
      (match write sys depth c w rest with
       | (Ok (Some n), c', w') => write_all sys f depth c' w' (skipn (Z.to_nat n) rest)
       | (Ok None, c', w') => (Err E_IO, c', w')
       | (Err k, c', w') => (Err k, c', w')
       | (Abort a, c', w') => (Abort a, c', w')
       end) by (rewrite Erest; reflexivity).
    destruct (write sys depth c w rest) as [[[[n|]|k|a] c'] w']; cbn [wpost] in Hw; try exact Hw; [|contradiction].
    destruct Hw as (-> & Hw).
    destruct (Z.ltb_spec 7 (zlen rest)) as [Hlong|Hshort].
    - destruct (seg_more rest Hlong) as (H7 & Hne' & Hz). rewrite (len7_zlen _ H7). change (Z.to_nat 7) with 7%nat.
      apply (IH (pre ++ firstn 7 rest)); [rewrite <- app_assoc, firstn_skipn; exact HP|exact Hne'| |exact Hw].
      unfold zlen in *. lia.
    - destruct (seg_last rest ltac:(rewrite Erest; discriminate) Hshort) as (-> & _).
      replace (Z.to_nat (zlen rest)) with (length rest) by (unfold zlen; lia).
      rewrite skipn_all. destruct f; exact Hw.
  Qed.

  (* the end request, with the CRC [lo + 256 * hi], reaches the server that holds the payload and the padding of the
     last segment *)
  Lemma srv_end blks nb (data : list Z) lo hi : (1 <= length data <= 7)%nat ->
    let refused := cc && negb (lo + 256 * hi =? crc16 P) in
    exists sv',
      dl_srv (SVx true blks nb 0 [] (P ++ repeat 0 (7 - length data)) false) false
             [193 + 4 * (7 - zlen data); lo; hi; 0; 0; 0; 0; 0] =
      (sv', [if refused then abort_frame mux 84148228 else [161; 0; 0; 0; 0; 0; 0; 0]]) /\
      (refused = false -> ds_store sv' = Some P /\ ds_bad sv' = bad0).
  Proof.
    intros Hd refused.
    destruct (end_bits (7 - zlen data) ltac:(unfold zlen; lia)) as (_ & L227 & _ & _ & LN & N128).
    assert (Hfirst : firstn (length (P ++ repeat 0 (7 - length data)) - Z.to_nat (7 - zlen data)) (P ++ repeat 0 (7 - length data)) = P).
    { apply firstn_app_exact. rewrite app_length, repeat_length. unfold zlen. lia. }
    unfold dl_srv, fb. cbn [length Nat.eqb negb nth SVx ds_state Z.eqb Pos.eqb]. rewrite N128, andb_false_r, L227, LN.
    cbn [Z.eqb Pos.eqb andb SVx ds_committed ds_cc ds_sizeind ds_size ds_mux ds_bad ds_aborted ds_blks ds_crc_en ds_blksize
             ds_ackseq ds_buf ds_lastflag ds_lost].
    rewrite Hfirst, Z.eqb_refl. fold refused. destruct refused; eexists; (split; [reflexivity|]); [discriminate|].
    intros _. split; reflexivity.
  Qed.

  (* a normal return means the server committed; it fails only if the end request is lost or the CRC is refused *)
  Lemma dl_close_spec nc0 crc retx c w : FIN nc0 crc retx c w ->
    match dl_close sys c w with
    | (Ok _, w') => ds_store (f_inner (n_srv w')) = Some P /\ ds_bad (f_inner (n_srv w')) = bad0
    | _ => (exists nc, nc0 <= nc /\ lostb faults (nc + 1) = true) \/ (cc = true /\ ~ (crc_en = true /\ crc = crc16 P))
    end.
  Proof.
    intros (data & nb & blks' & nc & ns & log & Hd & Hnc & -> & ->).
    set (lo := if crc_en then crc mod 256 else 0). set (hi := if crc_en then crc / 256 else 0).
    assert (Hreq : dl_end_request (CLx true (zlen data) (zlen P) 0 crc [] retx nb) =
                   [193 + 4 * (7 - zlen data); lo; hi; 0; 0; 0; 0; 0]).
    { destruct (end_bits (7 - zlen data) ltac:(unfold zlen; lia)) as (LOR & _).
      unfold dl_end_request. cbn [CLx d_last d_crcsup d_crc]. rewrite LOR. unfold lo, hi. destruct crc_en; reflexivity. }
    unfold dl_close, request_response. cbn [CLx d_closed]. rewrite Hreq.
    pose proof (send_request_NW (SVx true blks' nb 0 [] (P ++ repeat 0 (7 - length data)) false) nc ns log
                  [193 + 4 * (7 - zlen data); lo; hi; 0; 0; 0; 0; 0]) as Hsend.
    unfold NW in *. cbn [n_q].
    destruct (lostb faults (nc + 1)) eqn:El.
    - rewrite (Hsend _ _ eq_refl). left. exists nc. split; assumption.
    - destruct (srv_end blks' nb data lo hi Hd) as (sv' & Hsrv & Hok). rewrite (Hsend _ _ Hsrv).
      destruct (cc && negb (lo + 256 * hi =? crc16 P)) eqn:Ecrc.
      + right. apply andb_prop in Ecrc. destruct Ecrc as [Ecc Ecrc]. split; [exact Ecc|]. intros [He Hc].
        unfold lo, hi in Ecrc. rewrite He in Ecrc. Z.div_mod_to_equations; lia.
      + rewrite read_response_ok by reflexivity. exact (Hok eq_refl).
  Qed.

  (* the idle server on the initiate request *)
  Lemma dsrv_init index sub crc_client blks :
    cc = crc_client && crc_en -> mux = [index mod 256; index / 256; sub] -> 0 <= zlen P < 4294967296 ->
    dl_srv (mkds 0 blks crc_en false false 0 [] 0 0 [] [] false false store0 bad0 aborted0) false
           (dl_init_request index sub (Some (zlen P)) crc_client) =
    (SV (snd (next_blk blks)) (fst (next_blk blks)) 0 [] [] false,
     [(160 + (if crc_en then 4 else 0)) :: mux ++ [fst (next_blk blks); 0; 0; 0]]).
  Proof.
    intros Hcc Hmux Hsz.
    assert (Hdec : le_decode (le_encode 4 (zlen P)) = zlen P) by (apply le_decode_encode_small; exact Hsz).
    unfold SV. rewrite Hcc, Hmux. cbn [le_encode app] in Hdec. unfold dl_srv, fb, dl_init_request.
    destruct crc_client; cbn -[Z.modulo Z.div le_decode zlen Z.add next_blk];
      destruct (next_blk blks) as [nb blks']; cbn [fst snd]; rewrite Hdec; reflexivity.
  Qed.

  (* __init__ against the idle server: it succeeds iff the initiate request is not lost *)
  Lemma dl_init_spec index sub crc_client blks :
    cc = crc_client && crc_en -> mux = [index mod 256; index / 256; sub] -> zlen P < 4294967296 -> blks_ok blks ->
    match dl_init sys (mknet (fs_init (mkds 0 blks crc_en false false 0 [] 0 0 [] [] false false store0 bad0 aborted0) faults) [] [])
                  index sub (Some (zlen P)) crc_client with
    | (Ok c, w) => XS 0 [] false (fst (next_blk blks)) (snd (next_blk blks)) 0 [] 1 [] c w /\ lostb faults 1 = false
    | _ => lostb faults 1 = true
    end.
  Proof.
    intros Hcc Hmux Hsz Hblks. destruct (next_blk_ok blks Hblks) as [Hnb Hblks'].
    pose proof (zlen_nonneg P) as HP0.
    unfold dl_init, size_ok. replace ((0 <=? zlen P) && (zlen P <? 4294967296)) with true by lia. cbn [negb].
    unfold request_response, fs_init. cbn [n_q].
    set (req := dl_init_request index sub (Some (zlen P)) crc_client). set (s0 := mkds 0 blks _ _ _ _ _ _ _ _ _ _ _ _ _ _).
    pose proof (send_request_NW s0 0 0 [] req) as Hsend. unfold NW in Hsend. change (0 + 1) with 1 in Hsend.
    destruct (lostb faults 1).
    { rewrite (Hsend s0 []) by (unfold dl_srv; destruct (negb (length req =? 8)%nat); reflexivity). reflexivity. }
    rewrite (Hsend _ _ (dsrv_init index sub crc_client blks Hcc Hmux (conj HP0 Hsz))). clear Hsend.
    destruct (init_bits (160 + (if crc_en then 4 else 0)) 160 false crc_en (or_introl eq_refl) eq_refl)
      as (R128 & R224 & _ & _ & _ & RC).
    rewrite read_response_ok by exact R128.
    cbv beta iota. unfold fb. rewrite Hmux. cbn [nth app]. rewrite R224, RC. change (160 =? RESPONSE_BLOCK_DOWNLOAD) with true.
    replace (index mod 256 + 256 * (index / 256) =? index) with true by (Z.div_mod_to_equations; lia). rewrite Z.eqb_refl. cbn [negb orb].
    split; [|reflexivity]. apply (XS_new 0 false _ _ [] 1); assumption.
  Qed.

  (* where may one segment be lost so that the sub-block it belongs to is not the final one
     room = segments the current sub-block can still take, m = segments still to be sent,
     d = distance to the segment that will be lost (1 = the next one) *)
  Fixpoint loss_ok (fuel : nat) (room : Z) (blks : list Z) (m d : Z) : bool :=
    match fuel with
    | O => false
    | S f => if m <=? room then false else if d <=? room then true
             else loss_ok f (fst (next_blk blks)) (snd (next_blk blks)) (m - room) (d - room)
    end.

  Lemma loss_ok_more F room blks m d : loss_ok F room blks m d = true -> room < m.
  Proof. destruct F; cbn [loss_ok]; [discriminate|]. destruct (m <=? room) eqn:E; [discriminate|]. lia. Qed.

  Lemma loss_ok_mid F room blks m d : loss_ok F room blks m d = true ->
    loss_ok F (room - 1) blks (m - 1) (d - 1) = true.
  Proof.
    destruct F; cbn [loss_ok]; [discriminate|]. intros H.
    replace (m - 1 <=? room - 1) with (m <=? room) by lia.
    replace (d - 1 <=? room - 1) with (d <=? room) by lia.
    replace (m - 1 - (room - 1)) with (m - room) by lia.
    replace (d - 1 - (room - 1)) with (d - room) by lia. exact H.
  Qed.

  Lemma loss_ok_edge F blks m d : loss_ok F 1 blks m d = true -> 1 < d ->
    exists F', loss_ok F' (fst (next_blk blks)) (snd (next_blk blks)) (m - 1) (d - 1) = true.
  Proof.
    destruct F; cbn [loss_ok]; [discriminate|]. intros H Hd.
    destruct (m <=? 1); [discriminate|]. replace (d <=? 1) with false in H by lia. exists F. exact H.
  Qed.

  (* at most one client frame, kk, is lost.  Either it is behind and nothing is missing in the sub-block; or the
     sub-block in which it is (or will be) missing is not the final one ([m] segments are still to be sent), and
     write() may go one level deep to retransmit.  While retransmitting the CRC stays what it was, [crc0]; otherwise
     it is the CRC of what was sent *)
  Definition LS (kk : Z) (depth : nat) (retx : bool) (crc0 : Z) (pre : list Z) (c : dl) (w : NetD) : Prop :=
    exists crc cur B blks j0 sbase nc,
      XS crc cur retx B blks j0 sbase nc pre c w /\ 0 <= nc /\
      (if retx then crc = crc0 else crc_en = true -> crc = crc16 pre) /\
      (j0 = zlen cur /\ kk <= nc \/
       retx = false /\ (2 <= depth)%nat /\ (j0 = zlen cur \/ kk <= nc) /\
       exists F m, 7 * m - 6 <= zlen P - zlen pre <= 7 * m /\ loss_ok F (B - zlen cur) blks m (kk - nc) = true).
  Definition FINC (kk : Z) (retx : bool) (crc0 : Z) (c : dl) (w : NetD) : Prop :=
    exists crc, FIN kk crc retx c w /\ (if retx then crc = crc0 else crc_en = true -> crc = crc16 P).

  Lemma LS_retx_off kk d crc0 crc1 pre c w :
    LS kk d true crc0 pre c w -> (crc_en = true -> crc0 = crc16 pre) -> LS kk (S d) false crc1 pre (retx_off c) w.
  Proof.
    intros (crc & cur & B & blks & j0 & sbase & nc & (ns & log & -> & HW) & Hnc & -> & Hmode) Hcrc.
    exists crc0, cur, B, blks, j0, sbase, nc. split; [exists ns, log; split; [reflexivity|exact HW]|].
    split; [exact Hnc|]. split; [exact Hcrc|]. destruct Hmode as [H|(H & _)]; [left; exact H|discriminate].
  Qed.

  (* if no client frame but the kk-th is lost, write() does not fail: [LS] says that the loss can be repaired *)
  Lemma write_live kk : (forall k, 1 <= k -> lostb faults k = (k =? kk)) -> forall depth retx crc0,
    (1 <= depth)%nat -> keeps (write sys depth) (LS kk depth retx crc0) (FINC kk retx crc0) False.
  Proof.
    intros Hkk. induction depth as [|d IH]; intros retx crc0 Hd pre rest c w b HP Hne Hb
      (crc & cur & B & blks & j0 & sbase & nc & HX & Hnc & Hcrc & Hmode); [lia|].
    pose proof HX as (_ & _ & _ & _ & _ & Hj & HB & _).
    assert (HlenP : zlen P = zlen pre + zlen rest) by (rewrite HP; apply zlen_app).
    set (crc' := if crc_en && negb retx then crc_from crc (firstn 7 rest) else crc).
    assert (Hcrc' : if retx then crc' = crc0 else crc_en = true -> crc' = crc16 (pre ++ firstn 7 rest)).
    { unfold crc'. destruct retx; [rewrite andb_false_r; exact Hcrc|].
      intros He. rewrite He, (Hcrc He). symmetry. apply crc16_app. }
    assert (Hz : 7 < zlen rest -> zlen (pre ++ firstn 7 rest) = zlen pre + 7).
    { intros Hlong. destruct (seg_more rest Hlong) as (H7 & _). rewrite zlen_app, (len7_zlen _ H7). reflexivity. }
    (* the frame to be lost is not the last segment, nor one of the sub-block that ends with it *)
    assert (Hend : zlen rest <= 7 -> j0 = zlen cur /\ kk <= nc).
    { intros Hshort. destruct Hmode as [Hclean|(_ & _ & _ & F & m & Hm7 & HF)]; [exact Hclean|apply loss_ok_more in HF; lia]. }
    apply (write_step d _ _ _ _ _ _ _ _ pre rest c w b (LS kk (S d) retx crc0) (FINC kk retx crc0) False HP Hne Hb HX
             (nc + 1 =? kk) (Hkk (nc + 1) ltac:(lia))).
    - intros Hlong Hmid c' w' HX'.
      eexists crc', _, _, _, _, _, _. split; [exact HX'|]. split; [lia|]. split; [exact Hcrc'|].
      rewrite zlen_app. change (zlen [firstn 7 rest]) with 1.
      destruct Hmode as [Hclean|(Hr & Hd2 & Hm & F & m & Hm7 & HF)].
      + left. destruct (negb (nc + 1 =? kk) && (j0 =? zlen cur)) eqn:Ea; lia.
      + right. split; [exact Hr|]. split; [exact Hd2|].
        split; [destruct (negb (nc + 1 =? kk) && (j0 =? zlen cur)) eqn:Ea; lia|].
        exists F, (m - 1). split; [rewrite (Hz Hlong); lia|].
        replace (B - (zlen cur + 1)) with (B - zlen cur - 1) by lia. replace (kk - (nc + 1)) with (kk - nc - 1) by lia.
        apply loss_ok_mid, HF.
    - intros Hlong Hedge Ea c' w' HX'.
      eexists crc', _, _, _, _, _, _. split; [exact HX'|]. split; [lia|]. split; [exact Hcrc'|].
      destruct (Z.le_gt_cases kk nc) as [Hbehind|Hahead]; [left; split; [reflexivity|lia]|].
      destruct Hmode as [Hclean|(Hr & Hd2 & Hm & F & m & Hm7 & HF)]; [lia|]. right. split; [exact Hr|]. split; [exact Hd2|].
      split; [left; reflexivity|]. replace (B - zlen cur) with 1 in HF by lia.
      destruct (loss_ok_edge _ _ _ _ HF ltac:(lia)) as [F' HF']. exists F', (m - 1). split; [rewrite (Hz Hlong); lia|].
      change (zlen (@nil (list Z))) with 0. rewrite Z.sub_0_r. replace (kk - (nc + 1)) with (kk - nc - 1) by lia. exact HF'.
    - intros Hlong Hedge Ea. destruct Hmode as [Hclean|(-> & Hd2 & Hm & _)]; [lia|].
      exists (LS kk d true crc'), (FINC kk true crc').
      split; [apply IH; lia|]. split.
      + intros c1 w1 HX1. eexists crc', _, _, _, _, _, _. split; [exact HX1|]. split; [lia|]. split; [reflexivity|].
        left. split; [reflexivity|lia].
      + intros c0 w' HL. apply (LS_retx_off kk d crc' crc0); [exact HL|exact Hcrc'].
    - intros Hshort _ c' w' HF. exists crc'. split; [apply (FIN_weaken kk (nc + 1)); [destruct (Hend Hshort); lia|exact HF]|].
      destruct (seg_last rest Hne Hshort) as (Hf & _). rewrite Hf, <- HP in Hcrc'. exact Hcrc'.
    - intros Hshort Ea. destruct (Hend Hshort). lia.
  Qed.
End Download.

(* segment k (1 = first) of a transfer of nseg segments lies in a sub-block that is not the final one,
   for the block sizes the server announces *)
Definition nonfinal_segment (blks : list Z) (nseg k : Z) : bool :=
  loss_ok (S (Z.to_nat nseg)) (fst (next_blk blks)) (snd (next_blk blks)) nseg k.

Lemma lostb_nil k : lostb [] k = false.
Proof. reflexivity. Qed.

Lemma lostb_single kk k : lostb [FDropC kk] k = (k =? kk).
Proof. cbn. rewrite orb_false_r. destruct (kk =? k) eqn:E; lia. Qed.

Lemma only_dropc_map drops : only_dropc (map FDropC drops).
Proof. induction drops; constructor; [exact I|assumption]. Qed.

(* at most one client frame is lost, the kk-th (kk = 0: none; frame 1 is the initiate request) *)
Lemma download_one_loss (P blks : list Z) (index sub : Z) (crc_client crc_server : bool) (depth : nat) faults kk :
  1 <= zlen P < 4294967296 -> blks_ok blks -> only_dropc faults -> (forall k, 1 <= k -> lostb faults k = (k =? kk)) ->
  kk = 0 /\ (1 <= depth)%nat \/
  2 <= kk /\ (2 <= depth)%nat /\ nonfinal_segment blks ((zlen P + 6) / 7) (kk - 1) = true ->
  exists w,
    dl_transfer (faulty dl_srv) depth (mknet (fs_init (ds_init blks crc_server) faults) [] [])
                index sub (Some (zlen P)) crc_client P = (Ok tt, w) /\
    ds_store (f_inner (n_srv w)) = Some P /\ ds_bad (f_inner (n_srv w)) = 0.
Proof.
  intros HP Hblks Hf Hkk Hcase.
  set (cc := crc_client && crc_server). set (mux := [index mod 256; index / 256; sub]).
  pose proof (dl_init_spec P faults crc_server cc mux None 0 false Hf index sub crc_client blks eq_refl eq_refl ltac:(lia) Hblks) as Hi.
  unfold dl_transfer, ds_init.
  destruct (dl_init (faulty dl_srv) _ index sub (Some (zlen P)) crc_client) as [[c|k|x] w1]; [|rewrite Hkk in Hi; lia..].
  destruct Hi as [HX _].
  assert (HPne : P <> []) by (intros E; rewrite E in HP; cbn in HP; lia).
  assert (HL : LS P faults crc_server cc mux None 0 false kk depth false 0 [] c w1).
  { eexists 0, _, _, _, _, _, _. split; [exact HX|]. split; [lia|]. split; [reflexivity|].
    destruct Hcase as [[-> _]|(Hk2 & Hd & Hnf)]; [left; split; [reflexivity|lia]|right].
    split; [reflexivity|]. split; [exact Hd|]. split; [left; reflexivity|]. exists (S (Z.to_nat ((zlen P + 6) / 7))), ((zlen P + 6) / 7).
    change (zlen (@nil (list Z))) with 0. change (zlen (@nil Z)) with 0. rewrite !Z.sub_0_r. split; [Z.div_mod_to_equations; lia|exact Hnf]. }
  pose proof (write_all_loop P _ _ False depth
                (write_live P faults crc_server cc mux None 0 false Hf kk Hkk depth false 0 ltac:(lia))
                (S (length P)) [] P c w1 eq_refl HPne ltac:(lia) HL) as HW.
  destruct (write_all (faulty dl_srv) (S (length P)) depth c w1 P) as [[[[]|k|x] c'] w']; try contradiction.
  destruct HW as (crc & HF & Hcrc).
  pose proof (dl_close_spec P faults crc_server cc mux None 0 false Hf kk crc false c' w' HF) as HC.
  destruct (dl_close (faulty dl_srv) c' w') as [[[]|k|x] w'']; [exists w''; split; [reflexivity|exact HC]|exfalso..];
    (destruct HC as [(nc & Hnc & Hl)|(Hcc & Hno)];
     [rewrite Hkk in Hl; lia|apply Hno; unfold cc in Hcc; apply andb_prop in Hcc; split; [apply Hcc|apply Hcrc, Hcc]]).
Qed.

Lemma block_download_exact : forall (P blks : list Z) (index sub : Z) (crc_client crc_server : bool) (depth : nat),
  1 <= zlen P < 4294967296 -> blks <> [] -> Forall (fun b => 1 <= b <= 127) blks -> (1 <= depth)%nat ->
  exists w,
    dl_transfer (faulty dl_srv) depth (mknet (fs_init (ds_init blks crc_server) []) [] [])
                index sub (Some (zlen P)) crc_client P = (Ok tt, w) /\
    ds_store (f_inner (n_srv w)) = Some P /\ ds_bad (f_inner (n_srv w)) = 0.
Proof.
  intros P blks index sub crc_client crc_server depth HP Hne Hall Hdepth.
  apply (download_one_loss P blks index sub crc_client crc_server depth [] 0 HP (conj Hne Hall)); [constructor| |left; split; [reflexivity|exact Hdepth]].
  intros k Hk. rewrite lostb_nil. lia.
Qed.

Lemma single_loss_repaired : forall (P blks : list Z) (index sub : Z) (crc_client crc_server : bool) (depth : nat) (k : Z),
  1 <= zlen P < 4294967296 -> blks <> [] -> Forall (fun b => 1 <= b <= 127) blks -> (2 <= depth)%nat ->
  1 <= k -> nonfinal_segment blks ((zlen P + 6) / 7) k = true ->
  exists w,
    dl_transfer (faulty dl_srv) depth (mknet (fs_init (ds_init blks crc_server) [FDropC (k + 1)]) [] [])
                index sub (Some (zlen P)) crc_client P = (Ok tt, w) /\
    ds_store (f_inner (n_srv w)) = Some P /\ ds_bad (f_inner (n_srv w)) = 0.
Proof.
  intros P blks index sub crc_client crc_server depth k HP Hne Hall Hdepth Hk Hnf.
  apply (download_one_loss P blks index sub crc_client crc_server depth [FDropC (k + 1)] (k + 1) HP (conj Hne Hall)).
  - repeat constructor.
  - intros x _. apply lostb_single.
  - right. replace (k + 1 - 1) with k by lia. split; [lia|]. split; assumption.
Qed.

Lemma normal_return_means_committed :
  forall (P blks : list Z) (index sub : Z) (crc_client crc_server : bool) (depth : nat) (drops : list Z) w,
  1 <= zlen P < 4294967296 -> blks <> [] -> Forall (fun b => 1 <= b <= 127) blks ->
  dl_transfer (faulty dl_srv) depth (mknet (fs_init (ds_init blks crc_server) (map FDropC drops)) [] [])
              index sub (Some (zlen P)) crc_client P = (Ok tt, w) ->
  ds_store (f_inner (n_srv w)) = Some P.
Proof.
  intros P blks index sub crc_client crc_server depth drops w HP Hne Hall H.
  set (cc := crc_client && crc_server).
  set (mux := [index mod 256; index / 256; sub]).
  pose proof (only_dropc_map drops) as Hf.
  revert H. unfold dl_transfer, ds_init.
  destruct (dl_init (faulty dl_srv) _ index sub (Some (zlen P)) crc_client) as [[c|k|a] w1] eqn:Ei; try discriminate.
  pose proof (dl_init_spec P (map FDropC drops) crc_server cc mux None 0 false Hf index sub crc_client blks
                eq_refl eq_refl ltac:(lia) (conj Hne Hall)) as HG.
  rewrite Ei in HG. apply proj1 in HG.
  assert (HG1 : GS P (map FDropC drops) crc_server cc mux None 0 false 1 [] c w1).
  { apply GS_XS. eexists _, _, _, _, _, _, _, _. split; [exact HG|lia]. }
  assert (HPne : P <> []) by (intros E; rewrite E in HP; cbn in HP; lia).
  pose proof (write_all_loop P _ _ True depth (write_safe P (map FDropC drops) crc_server cc mux None 0 false Hf 1 depth)
                (S (length P)) [] P c w1 eq_refl HPne ltac:(lia) HG1) as HW.
  destruct (write_all (faulty dl_srv) (S (length P)) depth c w1 P) as [[r1 c2] w2].
  destruct (dl_close (faulty dl_srv) c2 w2) as [[u|k|a] w3] eqn:Ec; try discriminate.
  intros [= -> ->]. destruct HW as (crc & retx & HF).
  pose proof (dl_close_spec P (map FDropC drops) crc_server cc mux None 0 false Hf 1 crc retx c2 w2 HF) as HC.
  rewrite Ec in HC. apply HC.
Qed.

Definition len8 (fr : frame) : Prop := length fr = 8%nat.

(* C13: what a normal return of read() / readall implies against a peer all of whose frames satisfy [F].
   With [F] true of every frame these are guards that hold against ANY peer; with [F] = [len8], readall moreover
   returns only after the transfer completed *)
Section Stream.
  Context {S : Type} (srv : S -> frame -> S * list frame).
  Context (F : frame -> Prop) (HsrvF : forall s fr, Forall F (snd (srv s fr))).
  Notation net := (@net S).
  Definition qF (w : net) : Prop := Forall F (n_q w).

  Lemma send_request_q w fr : qF w -> qF (send_request srv w fr).
  Proof.
    unfold qF, send_request. intros H. pose proof (HsrvF (n_srv w) fr) as HF.
    destruct (srv (n_srv w) fr) as [s' rs]. apply Forall_app. split; assumption.
  Qed.

  Lemma read_response_q w r w' : qF w -> read_response w = (r, w') -> qF w' /\ (forall fr, r = Ok fr -> F fr).
  Proof.
    unfold qF, read_response. destruct (n_q w) as [|x q] eqn:E.
    - intros _ [= <- <-]. rewrite E. split; [constructor|discriminate].
    - intros H. apply Forall_cons_iff in H. destruct H as [Hx Hq].
      destruct (fb x 0 =? RESPONSE_ABORTED); intros [= <- <-]; (split; [exact Hq|]); [discriminate|].
      intros fr [= <-]. exact Hx.
  Qed.

  (* _retransmit and _end_upload leave the stream as it was, up to _ackseq and _server_crc *)
  Lemma retx_loop_ok fuel : forall u (w : net) r u' w', qF w -> retx_loop fuel u w = (Ok r, u', w') ->
    qF w' /\ F r /\ exists s, u' = set_ackseq u s.
  Proof.
    induction fuel as [|f IH]; intros u w r u' w' Hq H; cbn [retx_loop] in H; [discriminate|].
    destruct (read_response w) as [[r0|k|a] w1] eqn:Er; try discriminate.
    destruct (read_response_q _ _ _ Hq Er) as [Hq1 Hr0].
    destruct (Z.land (fb r0 0) 127 =? u_ackseq u + 1); [|exact (IH _ _ _ _ _ Hq1 H)].
    injection H as <- <- <-. split; [exact Hq1|]. split; [exact (Hr0 _ eq_refl)|]. eexists. reflexivity.
  Qed.

  Lemma ul_retransmit_ok u w r u' w' : qF w -> ul_retransmit srv u w = (Ok r, u', w') ->
    qF w' /\ F r /\ exists s, u' = set_ackseq u s.
  Proof.
    intros Hq H. apply retx_loop_ok in H; [|apply send_request_q, Hq]. destruct H as (Hq' & Hr & s & ->).
    split; [exact Hq'|]. split; [exact Hr|]. exists s. reflexivity.
  Qed.

  Lemma end_upload_ok u w n u' w' : qF w -> end_upload srv u w = (Ok n, u', w') ->
    qF w' /\ exists sc, u' = mkul (u_done u) (u_pos u) (u_crc u) (Some sc) (u_ackseq u) (u_error u) (u_size u) (u_crcsup u) (u_blksize u).
  Proof.
    unfold end_upload. intros Hq. destruct (read_response w) as [[r0|k|a] w1] eqn:Er; try discriminate.
    destruct (read_response_q _ _ _ Hq Er) as [Hq1 _].
    destruct (negb (Z.land (fb r0 0) 224 =? RESPONSE_BLOCK_UPLOAD)); [discriminate|].
    destruct (negb (Z.land (fb r0 0) 3 =? END_BLOCK_TRANSFER)); [discriminate|].
    intros [= _ <- <-]. split; [exact Hq1|]. eexists. reflexivity.
  Qed.

  (* what is known about the stream after the bytes [acc] have been handed out: the running CRC and the position
     belong to them; once the transfer is complete, the announced CRC (if negotiated) and size (if any) matched *)
  Definition ul_inv (u : ul) (acc : list Z) : Prop :=
    (u_crcsup u = true -> u_crc u = crc16 acc) /\ u_pos u = zlen acc /\
    (u_done u = true ->
       (u_crcsup u = true -> u_scrc u = Some (u_crc u)) /\ (forall s, u_size u = Some s -> u_pos u = s)).

  (* a read() on the stream [u] that returned (Ok data, u', w'): the queue still holds frames of the peer, no data
     means the transfer is complete (if [c8]: the segment had 8 bytes), and [ul_inv] is kept *)
  Definition read_post (c8 : Prop) (u : ul) (data : list Z) (u' : ul) (w' : net) : Prop :=
    qF w' /\ (c8 -> data = [] -> u_done u' = true) /\ forall acc, ul_inv u acc -> ul_inv u' (acc ++ data).

  Lemma read_tail_ok u a w resp data u' w' : qF w ->
    read_tail srv (set_ackseq u a) w resp = (Ok data, u', w') -> read_post (len8 resp) u data u' w'.
  Proof.
    intros Hq. unfold read_tail.
    set (last := negb (Z.land (fb resp 0) NO_MORE_BLOCKS =? 0)).
    assert (Hack : exists a1 w1, (if (u_blksize (set_ackseq u a) <=? u_ackseq (set_ackseq u a)) || last
                                  then ack_block srv (set_ackseq u a) w else (set_ackseq u a, w)) = (set_ackseq u a1, w1) /\ qF w1).
    { destruct (_ || last); eexists _, _; (split; [reflexivity|]); [apply send_request_q|]; exact Hq. }
    destruct Hack as (a1 & w1 & -> & Hq1). cbv zeta.
    assert (Hkeep : forall acc d, ul_inv u acc ->
              (u_crcsup u = true -> (if u_crcsup u then crc_from (u_crc u) d else u_crc u) = crc16 (acc ++ d)) /\
              u_pos u + zlen d = zlen (acc ++ d)).
    { intros acc d (I1 & I2 & _). split; [intros Hc; rewrite Hc, (I1 Hc); symmetry; apply crc_from_app|].
      rewrite I2, zlen_app. reflexivity. }
    destruct last.
    - destruct (end_upload srv (set_ackseq u a1) w1) as [[[n|k|x] u2] w2] eqn:Ee; try discriminate.
      destruct (end_upload_ok _ _ _ _ _ Hq1 Ee) as (Hq2 & sc & ->).
      set (d := skipn 1 (firstn _ resp)).
      cbn [set_ackseq u_crcsup u_crc u_scrc u_pos u_size u_ackseq u_error u_blksize].
      destruct (u_crcsup u && _ && _) eqn:Ecrc; [discriminate|].
      destruct (_ && match u_size u with Some s => _ | None => false end) eqn:Esz; [discriminate|].
      intros [= <- <- <-]. split; [exact Hq2|]. split; [reflexivity|].
      intros acc HI. destruct (Hkeep acc d HI) as [Hc Hp]. unfold ul_inv. cbn [u_crcsup u_crc u_scrc u_pos u_size u_done].
      split; [exact Hc|]. split; [exact Hp|]. intros _. rewrite andb_true_r in Ecrc. cbn [andb] in Esz. split.
      + intros Hs. rewrite Hs in *. cbn [andb] in Ecrc. f_equal. lia.
      + intros s Hs. rewrite Hs in Esz. lia.
    - set (d := skipn 1 (firstn 8 resp)).
      cbn [set_ackseq u_crcsup u_crc u_scrc u_pos u_size u_ackseq u_error u_blksize].
      rewrite andb_false_r. cbn [andb]. intros [= <- <- <-]. split; [exact Hq1|]. split.
      + (* an 8-byte segment that is not the last one carries 7 bytes *)
        unfold len8, d. intros Hr. rewrite firstn_all2 by lia. destruct resp as [|x [|y r]]; cbn in Hr; try lia. discriminate.
      + intros acc HI. destruct (Hkeep acc d HI) as [Hc Hp]. split; [exact Hc|]. split; [exact Hp|discriminate].
  Qed.

  Lemma ul_read_ok u w data u' w' : qF w -> ul_read srv u w = (Ok data, u', w') ->
    read_post (forall fr, F fr -> len8 fr) u data u' w'.
  Proof.
    intros Hq. unfold ul_read. destruct (u_done u) eqn:Ed.
    - intros [= <- <- <-]. split; [exact Hq|]. split; [intros _ _; exact Ed|]. intros acc HI. rewrite app_nil_r. exact HI.
    - assert (Htail : forall a w1 resp, qF w1 -> F resp -> read_tail srv (set_ackseq u a) w1 resp = (Ok data, u', w') ->
                        read_post (forall fr, F fr -> len8 fr) u data u' w').
      { intros a w1 resp Hq1 Hr H. destruct (read_tail_ok _ _ _ _ _ _ _ Hq1 H) as (Hq' & Hd & HI).
        split; [exact Hq'|]. split; [intros H8; exact (Hd (H8 _ Hr))|exact HI]. }
      assert (Hretx : forall w1, qF w1 -> match ul_retransmit srv u w1 with
                                          | (Ok response', u2, w2) => read_tail srv u2 w2 response'
                                          | (Err k, u2, w2) => (Err k, u2, w2)
                                          | (Abort a, u2, w2) => (Abort a, u2, w2)
                                          end = (Ok data, u', w') -> read_post (forall fr, F fr -> len8 fr) u data u' w').
      { intros w1 Hq1. destruct (ul_retransmit srv u w1) as [[[resp'|k|a] u2] w2] eqn:Er; try discriminate.
        destruct (ul_retransmit_ok _ _ _ _ _ Hq1 Er) as (Hq2 & Hr2 & s & ->). apply Htail; assumption. }
      destruct (read_response w) as [[resp|k|a] w1] eqn:Er; [|apply Hretx, (read_response_q _ _ _ Hq Er)|discriminate].
      destruct (read_response_q _ _ _ Hq Er) as [Hq1 Hr].
      destruct (Z.land (fb resp 0) 127 =? u_ackseq u + 1); [apply Htail; [exact Hq1|exact (Hr _ eq_refl)]|apply Hretx, Hq1].
  Qed.

  Lemma readall_ok fuel : forall u w acc out u' w', qF w -> ul_inv u acc -> readall srv fuel u w acc = (Ok out, u', w') ->
    ul_inv u' out /\ ((forall fr, F fr -> len8 fr) -> u_done u' = true).
  Proof.
    induction fuel as [|f IH]; intros u w acc out u' w' Hq HI H; cbn [readall] in H; [discriminate|].
    destruct (ul_read srv u w) as [[[data|k|a] u1] w1] eqn:Er; try discriminate.
    destruct (ul_read_ok _ _ _ _ _ Hq Er) as (Hq1 & Hd & HI1). specialize (HI1 acc HI).
    destruct data as [|x data']; [|exact (IH _ _ _ _ _ _ Hq1 HI1 H)].
    injection H as <- <- _. rewrite app_nil_r in HI1. split; [exact HI1|]. intros H8. exact (Hd H8 eq_refl).
  Qed.

  Lemma ul_init_ok w index sub blksize crc u w1 : ul_init srv w index sub blksize crc = (Ok u, w1) -> ul_inv u [] /\ qF w1.
  Proof.
    unfold ul_init, request_response.
    set (w0 := match n_q w with [] => w | _ => mknet (n_srv w) [] (n_log w) end).
    assert (H0 : qF w0) by (unfold w0, qF; destruct (n_q w) eqn:E; [rewrite E|cbn [n_q]]; constructor).
    destruct (read_response (send_request srv w0 _)) as [[r|k|a] w2] eqn:Er; try discriminate.
    destruct (read_response_q _ _ _ (send_request_q _ _ H0) Er) as [Hq2 _].
    destruct (negb (Z.land (fb r 0) 224 =? RESPONSE_BLOCK_UPLOAD)); [discriminate|].
    destruct (negb (fb r 1 + 256 * fb r 2 =? index) || negb (fb r 3 =? sub)); [discriminate|].
    intros [= <- <-]. split; [|apply send_request_q, Hq2]. split; [reflexivity|]. split; [reflexivity|discriminate].
  Qed.

  (* a normal return of the with-block: the transfer is complete if the peer's frames have 8 bytes; if it is complete,
     the data have the announced CRC (when negotiated) and the announced length *)
  Lemma ul_transfer_ok fuel w index sub blksize crc data u w' :
    ul_transfer srv fuel w index sub blksize crc = (Ok data, u, w') ->
    ((forall fr, F fr -> len8 fr) -> u_done u = true) /\
    (u_done u = true ->
     (u_crcsup u = true -> u_scrc u = Some (crc16 data)) /\ (forall s, u_size u = Some s -> zlen data = s)).
  Proof.
    unfold ul_transfer. destruct (ul_init srv w index sub blksize crc) as [[u0|k|a] w1] eqn:Ei; try discriminate.
    destruct (ul_init_ok _ _ _ _ _ _ _ Ei) as [HI0 Hq0].
    destruct (readall srv fuel u0 w1 []) as [[r u2] w2] eqn:Er. intros [= -> -> _].
    destruct (readall_ok _ _ _ _ _ _ _ Hq0 HI0 Er) as ((J1 & J2 & J3) & Hd). split; [exact Hd|].
    intros Hdone. destruct (J3 Hdone) as (K1 & K2). split.
    - intros Hsup. rewrite (K1 Hsup), (J1 Hsup). reflexivity.
    - intros s Hs. rewrite <- J2. apply K2. exact Hs.
  Qed.
End Stream.

(* C13 crc_guard / size_guard: any peer whatsoever *)
Lemma crc_size_guard {S : Type} (srv : S -> frame -> S * list frame) fuel w index sub blksize crc data u w' :
  ul_transfer srv fuel w index sub blksize crc = (Ok data, u, w') ->
  u_done u = true ->
  (u_crcsup u = true -> u_scrc u = Some (crc16 data)) /\
  (forall s, u_size u = Some s -> zlen data = s).
Proof.
  intros H. apply (ul_transfer_ok srv (fun _ => True)) in H; [apply H|]. intros s fr. apply Forall_forall. trivial.
Qed.

Lemma us_segments_nil k seq : us_segments k seq [] = [].
Proof. destruct k; reflexivity. Qed.

Lemma readall_step fuel u (w : @net (fstate usrv)) acc data u1 w1 : data <> [] ->
  ul_read (faulty ul_srv) u w = (Ok data, u1, w1) ->
  readall (faulty ul_srv) (S fuel) u w acc = readall (faulty ul_srv) fuel u1 w1 (acc ++ data).
Proof. intros Hne H. cbn [readall]. rewrite H. destruct data; [contradiction|reflexivity]. Qed.

Lemma xor_at_length fr i m : length (xor_at fr i m) = length fr.
Proof. revert i. induction fr as [|b r IH]; intros i; [destruct i; reflexivity|]. destruct i; cbn; [reflexivity|now rewrite IH]. Qed.

Lemma abort_frame_len8 (fr : frame) code : len8 fr -> len8 (abort_frame (firstn 3 (skipn 1 fr)) code).
Proof.
  unfold len8, abort_frame. intros H. cbn [length]. rewrite app_length, le_encode_length, firstn_length, skipn_length. lia.
Qed.

Lemma mangle1_len8 faults j frs : Forall len8 frs -> Forall len8 (mangle1 faults j frs).
Proof.
  revert frs. induction faults as [|f r IH]; intros frs H; cbn [mangle1]; [exact H|].
  apply IH. destruct f; try exact H.
  - destruct (j0 =? j); [constructor|exact H].
  - destruct (j0 =? j); [|exact H]. apply Forall_map. eapply Forall_impl; [|exact H].
    intros y Hy. unfold len8. rewrite xor_at_length. exact Hy.
  - destruct (j0 =? j); [|exact H]. apply Forall_map. eapply Forall_impl; [|exact H]. intros y. apply abort_frame_len8.
  - destruct (j0 =? j); [|exact H]. apply Forall_app. split; exact H.
Qed.

Lemma mangle_len8 faults ns outs : Forall len8 outs -> Forall len8 (mangle faults ns outs).
Proof.
  revert ns. induction outs as [|fr r IH]; intros ns H; cbn [mangle]; [constructor|].
  inversion H; subst. apply Forall_app. split; [apply mangle1_len8; repeat constructor; assumption|apply IH; assumption].
Qed.

(* the reference upload server only emits 8-byte frames ([ul_srv_len8]), and the fault injector keeps them so *)
Lemma faulty_len8 {S} (srv : S -> bool -> frame -> S * list frame) :
  (forall s l fr, Forall len8 (snd (srv s l fr))) -> forall fs fr, Forall len8 (snd (faulty srv fs fr)).
Proof.
  intros H fs fr. unfold faulty. pose proof (H (f_inner fs) (lostb (f_faults fs) (f_nc fs + 1)) fr) as H8.
  destruct (srv (f_inner fs) (lostb (f_faults fs) (f_nc fs + 1)) fr) as [s' outs]. cbn [snd] in *.
  apply mangle_len8. exact H8.
Qed.

Lemma us_segments_len8 k : forall seq rest, Forall len8 (us_segments k seq rest).
Proof.
  induction k as [|k IH]; intros seq rest; cbn [us_segments]; [constructor|].
  destruct rest as [|x r]; [constructor|].
  assert (H7 : (length (firstn 7 (x :: r)) <= 7)%nat) by (rewrite firstn_length; lia).
  destruct (skipn 7 (x :: r)); (constructor; [unfold len8; apply pad8_length; cbn [length]; lia|]); [constructor|apply IH].
Qed.

Lemma ul_srv_len8 s l fr : Forall len8 (snd (ul_srv s l fr)).
Proof.
  unfold ul_srv. destruct l; [constructor|].
  destruct (negb (length fr =? 8)%nat) eqn:El; [constructor|].
  assert (H8 : len8 fr) by (unfold len8; apply Nat.eqb_eq; destruct (length fr =? 8)%nat; [reflexivity|discriminate]).
  destruct (fb fr 0 =? 128); [constructor|].
  destruct (negb (Z.land (fb fr 0) 224 =? 160)); [cbn [snd]; constructor; [apply abort_frame_len8; exact H8|constructor]|].
  assert (Hmux : length (firstn 3 (skipn 1 fr)) = 3%nat) by (unfold len8 in H8; rewrite firstn_length, skipn_length; lia).
  destruct ((Z.land (fb fr 0) 3 =? 0) && (us_state s =? 0)).
  { cbn [snd]. constructor; [|constructor]. unfold len8. cbn [length]. rewrite app_length, Hmux.
    destruct (us_sizeind s); [rewrite le_encode_length|]; reflexivity. }
  destruct ((Z.land (fb fr 0) 3 =? 3) && (us_state s =? 1)).
  { unfold us_send_block. cbn [snd]. apply us_segments_len8. }
  destruct ((Z.land (fb fr 0) 3 =? 2) && (us_state s =? 2)).
  { destruct (zlen (us_value s) <=? us_start s + 7 * fb fr 1).
    - cbn [snd]. constructor; [reflexivity|constructor].
    - unfold us_send_block. cbn [snd]. apply us_segments_len8. }
  destruct ((Z.land (fb fr 0) 3 =? 1) && (us_state s =? 3)); [constructor|].
  cbn [snd]. constructor; [apply abort_frame_len8; exact H8|constructor].
Qed.

(* C13 crc_guard for the reference server under ANY fault list: a normal return is a completed transfer,
   its data have the announced CRC (when negotiated) and the announced length *)
Lemma crc_guard_ref : forall (V : list Z) (crc_server size_ind : bool) (faults : list fault) fuel index sub blksize crc data u w',
  ul_transfer (faulty ul_srv) fuel (mknet (fs_init (us_init V crc_server size_ind) faults) [] []) index sub blksize crc = (Ok data, u, w') ->
  u_done u = true /\
  (u_crcsup u = true -> u_scrc u = Some (crc16 data)) /\
  (forall s, u_size u = Some s -> zlen data = s).
Proof.
  intros V crc_server size_ind faults fuel index sub blksize crc data u w' H.
  destruct (ul_transfer_ok (faulty ul_srv) len8 (faulty_len8 ul_srv ul_srv_len8) _ _ _ _ _ _ _ _ _ H) as [Hd Hg].
  specialize (Hd (fun _ H8 => H8)). split; [exact Hd|exact (Hg Hd)].
Qed.

(* C13: one lost server frame is repaired *)
Definition remove_nth {A} (n : nat) (l : list A) : list A := firstn n l ++ skipn (S n) l.

Lemma mangle_single_drop j : forall outs ns,
  mangle [FDropS j] ns outs =
  if (ns <? j) && (j <=? ns + zlen outs) then remove_nth (Z.to_nat (j - ns - 1)) outs else outs.
Proof.
  induction outs as [|fr r IH]; intros ns.
  - cbn [mangle]. destruct ((ns <? j) && (j <=? ns + zlen (@nil frame))); [|reflexivity].
    unfold remove_nth. rewrite firstn_nil, skipn_nil. reflexivity.
  - cbn [mangle mangle1]. rewrite IH. rewrite zlen_cons.
    destruct (Z.eq_dec j (ns + 1)) as [E|E].
    + replace (j =? ns + 1) with true by lia. cbn [app].
      replace ((ns + 1 <? j) && (j <=? ns + 1 + zlen r)) with false by lia.
      pose proof (zlen_nonneg r).
      replace ((ns <? j) && (j <=? ns + (1 + zlen r))) with true by lia.
      replace (Z.to_nat (j - ns - 1)) with 0%nat by lia. reflexivity.
    + replace (j =? ns + 1) with false by lia. cbn [app].
      replace ((ns <? j) && (j <=? ns + (1 + zlen r))) with ((ns + 1 <? j) && (j <=? ns + 1 + zlen r)) by lia.
      destruct ((ns + 1 <? j) && (j <=? ns + 1 + zlen r)) eqn:C; [|reflexivity].
      replace (Z.to_nat (j - ns - 1)) with (S (Z.to_nat (j - (ns + 1) - 1))) by lia.
      reflexivity.
Qed.

Lemma us_segments_more k seq rest : 7 < zlen rest ->
  us_segments (S k) seq rest = pad8 (seq :: firstn 7 rest) :: us_segments k (seq + 1) (skipn 7 rest).
Proof.
  intros H. destruct (seg_more rest H) as (_ & Hne & _). cbn [us_segments].
  destruct rest; [discriminate H|]. destruct (skipn 7 (z :: rest)); [contradiction|reflexivity].
Qed.

Lemma us_segments_last k seq rest : rest <> [] -> zlen rest <= 7 ->
  us_segments (S k) seq rest = [pad8 ((seq + 128) :: rest)].
Proof.
  intros Hne H. destruct (seg_last rest Hne H) as (Hf & Hs & _). cbn [us_segments].
  destruct rest; [contradiction|]. rewrite Hs, Hf. reflexivity.
Qed.

Section UploadF.
  Context (V : list Z) (B : Z) (crc_client crc_en si : bool) (faults : list fault).
  Context (HB : 1 <= B <= 127).
  Context (Hnl : forall k, lostb faults k = false).
  (* at most one server frame is lost, the j-th (j <= 0: none) *)
  Context (j : Z).
  Context (Hdrop : forall ns outs, 0 <= ns -> mangle faults ns outs =
             if (ns <? j) && (j <=? ns + zlen outs) then remove_nth (Z.to_nat (j - ns - 1)) outs else outs).

  Notation usys := (faulty ul_srv).
  Notation NetU := (@net (fstate usrv)).
  Let cc := crc_client && crc_en.

  (* UCF, USF, NUF: client stream, server and network as [CL], [SV], [NW] above, for the upload; F: the server is
     [faulty ul_srv], as opposed to the arbitrary [srv] of section Stream ([ul_init_okF] there is [ul_init_ok]) *)
  Definition UCF (done : bool) (pos crc : Z) (scrc : option Z) (a : Z) : ul :=
    mkul done pos crc scrc a false (if si then Some (zlen V) else None) cc B.
  Definition USF (st start sent : Z) (ex : bool) : usrv := mkus st V crc_en cc B start sent ex false 0 false si.
  Definition NUF (sv : usrv) (q : list frame) (nc ns : Z) (log : list frame) : NetU := mknet (mkfs sv nc ns faults) q log.

  Lemma usend_requestF sv (q : list frame) nc ns log fr sv' outs :
    ul_srv sv false fr = (sv', outs) ->
    send_request usys (NUF sv q nc ns log) fr =
    NUF sv' (q ++ mangle faults ns outs) (nc + 1) (ns + zlen outs)
       (rev (map (cons 1) (mangle faults ns outs)) ++ (0 :: fr) :: log).
  Proof.
    intros H. unfold send_request, NUF, faulty. cbn [n_srv n_q n_log f_inner f_nc f_ns f_faults].
    rewrite Hnl, H. reflexivity.
  Qed.

  (* nothing the server emits from ordinal ns on is lost *)
  Lemma mangle_past ns outs : 0 <= ns -> j <= ns -> mangle faults ns outs = outs.
  Proof. intros H0 H. rewrite Hdrop by assumption. replace (ns <? j) with false by lia. reflexivity. Qed.

  Definition burst_at (pos : Z) : list frame := us_segments (Z.to_nat B) 1 (skipn (Z.to_nat pos) V).

  Lemma burst_at_pre pre rest : V = pre ++ rest -> burst_at (zlen pre) = us_segments (Z.to_nat B) 1 rest.
  Proof.
    intros HV. unfold burst_at. replace (Z.to_nat (zlen pre)) with (length pre) by (unfold zlen; lia).
    rewrite HV, skipn_app, skipn_all, Nat.sub_diag. reflexivity.
  Qed.

  (* _ack_block after [a'] segments of the sub-block: the server answers with the next sub-block, or with the end frame *)
  Lemma ack_eq pos crc a' start sent ex (q : list frame) nc ns log : a' <= sent ->
    let n := (7 - zlen V mod 7) mod 7 in
    let crcv := if cc then crc16 V else 0 in
    let outs := if zlen V <=? start + 7 * a' then [[193 + 4 * n; crcv mod 256; crcv / 256; 0; 0; 0; 0; 0]]
                else burst_at (start + 7 * a') in
    exists log',
    ack_block usys (UCF false pos crc None a') (NUF (USF 2 start sent ex) q nc ns log) =
    (UCF false pos crc None 0,
     NUF (if zlen V <=? start + 7 * a' then USF 3 (start + 7 * a') 0 (ex && (a' =? sent))
          else USF 2 (start + 7 * a') (zlen outs) (ex && (a' =? sent)))
         (q ++ mangle faults ns outs) (nc + 1) (ns + zlen outs) log').
  Proof.
    intros Ha n crcv outs. unfold ack_block, ul_ack_request. cbn [UCF u_ackseq u_blksize]. eexists.
    rewrite (usend_requestF _ _ _ _ _ _ (if zlen V <=? start + 7 * a' then USF 3 (start + 7 * a') 0 (ex && (a' =? sent))
                                         else USF 2 (start + 7 * a') (zlen outs) (ex && (a' =? sent))) outs); [reflexivity|].
    change (Z.lor REQUEST_BLOCK_UPLOAD BLOCK_TRANSFER_RESPONSE) with 162.
    unfold outs, ul_srv, fb. cbn [length Nat.eqb negb nth].
    change (162 =? 128) with false. change (Z.land 162 224 =? 160) with true. change (Z.land 162 3) with 2.
    change (2 =? 0) with false. change (2 =? 3) with false. change (2 =? 2) with true. cbn [negb andb].
    cbn [USF us_state us_sent us_start us_acks_exact us_bad us_value]. change (2 =? 2) with true. cbn [andb].
    replace (sent <? a') with false by lia.
    replace ((1 <=? B) && (B <=? 127)) with true by lia.
    destruct (zlen V <=? start + 7 * a'); [|unfold us_send_block, burst_at];
      cbn [us_value us_cc us_crc_en us_ended us_aborted]; reflexivity.
  Qed.

  (* read(): the part after the segment has been obtained (ackseq already advanced to s) *)
  Lemma tail_mid pos crc s (q : list frame) start sent ex nc ns log chunk :
    1 <= s <= B -> len7 chunk ->
    (s = B -> s <= sent /\ start + 7 * B < zlen V) ->
    exists log',
    read_tail usys (UCF false pos crc None s) (NUF (USF 2 start sent ex) q nc ns log) (pad8 (s :: chunk)) =
    (Ok chunk, UCF false (pos + 7) (if cc then crc_from crc chunk else crc) None (if s =? B then 0 else s),
     if s =? B
     then NUF (USF 2 (start + 7 * B) (zlen (burst_at (start + 7 * B))) (ex && (B =? sent)))
             (q ++ mangle faults ns (burst_at (start + 7 * B))) (nc + 1) (ns + zlen (burst_at (start + 7 * B))) log'
     else NUF (USF 2 start sent ex) q nc ns log).
  Proof.
    intros Hs Hc Hedge.
    destruct (seq_bits s ltac:(lia)) as (L127 & _ & N128 & _ & _ & _ & _ & L128 & _).
    rewrite pad8_cons by (unfold len7 in Hc; lia). rewrite Hc, Nat.sub_diag. cbn [repeat]. rewrite app_nil_r.
    unfold read_tail, fb. cbn [nth]. change NO_MORE_BLOCKS with 128. rewrite L128. cbn [Z.eqb negb].
    rewrite orb_false_r. cbn [UCF u_blksize u_ackseq].
    assert (Hdata : skipn 1 (firstn 8 (s :: chunk)) = chunk).
    { change (firstn 8 (s :: chunk)) with (s :: firstn 7 chunk). cbn [skipn]. apply firstn_all2. unfold len7 in Hc. lia. }
    rewrite Hdata, (len7_zlen chunk Hc).
    destruct (Z.eq_dec s B) as [He|Hne].
    - destruct (Hedge He) as (Hsent & Hmore).
      replace (B <=? s) with true by lia. replace (s =? B) with true by lia.
      rewrite He. destruct (ack_eq pos crc B start sent ex q nc ns log ltac:(lia)) as [log' ->].
      replace (zlen V <=? start + 7 * B) with false by lia.
      cbn [UCF u_crcsup u_scrc u_crc u_pos u_size u_done u_ackseq u_error u_blksize].
      rewrite andb_false_r. cbn [andb].
      eexists. unfold UCF, NUF. reflexivity.
    - replace (B <=? s) with false by lia. replace (s =? B) with false by lia.
      cbn [set_ackseq u_crcsup u_scrc u_crc u_pos u_size u_done u_ackseq u_error u_blksize].
      rewrite andb_false_r. cbn [andb].
      eexists log. unfold UCF, NUF. reflexivity.
  Qed.

  (* _end_upload() with the end frame at the head of the queue: n unused bytes, CRC [lo + 256 * hi] *)
  Lemma end_upload_eq u sv n lo hi (q : list frame) nc ns log : 0 <= n <= 7 ->
    end_upload usys u (NUF sv ([193 + 4 * n; lo; hi; 0; 0; 0; 0; 0] :: q) nc ns log) =
    (Ok n, mkul (u_done u) (u_pos u) (u_crc u) (Some (lo + 256 * hi)) (u_ackseq u) (u_error u) (u_size u) (u_crcsup u)
                (u_blksize u), NUF sv q nc ns log).
  Proof.
    intros Hn. destruct (end_bits n Hn) as (_ & _ & E224 & E3 & En & E128).
    unfold end_upload, NUF. rewrite read_response_ok by exact E128. cbv beta iota. unfold fb. cbn [nth].
    change RESPONSE_BLOCK_UPLOAD with 192. change END_BLOCK_TRANSFER with 1. rewrite E224, E3, En. reflexivity.
  Qed.

  Lemma tail_last pos q crc s start sent ex nc ns log chunk :
    1 <= s <= B -> (1 <= length chunk <= 7)%nat -> s <= sent ->
    zlen V <= start + 7 * s -> pos + zlen chunk = zlen V -> pos = 7 * q -> 0 <= ns -> j <= ns ->
    (cc = true -> crc_from crc chunk = crc16 V) ->
    exists log',
    read_tail usys (UCF false pos crc None s) (NUF (USF 2 start sent ex) [] nc ns log) (pad8 ((s + 128) :: chunk)) =
    (Ok chunk, UCF true (zlen V) (if cc then crc16 V else crc) (Some (if cc then crc16 V else 0)) 0,
     NUF (USF 3 (start + 7 * s) 0 (ex && (s =? sent))) [] (nc + 1) (ns + 1) log').
  Proof.
    intros Hs Hc Hsent Hend Hpos Hmod Hns Hpast Hcrc.
    destruct (seq_bits s ltac:(lia)) as (_ & _ & _ & _ & L127 & _ & N128 & _ & L128).
    set (n := 7 - zlen chunk).
    assert (Hn : 0 <= n <= 6) by (unfold n, zlen; lia).
    set (crcv := if cc then crc16 V else 0).
    rewrite pad8_cons by lia.
    unfold read_tail, fb. cbn [nth]. change NO_MORE_BLOCKS with 128. rewrite L128. cbn [negb]. rewrite orb_true_r.
    destruct (ack_eq pos crc s start sent ex [] nc ns log Hsent) as [log' ->].
    replace (zlen V <=? start + 7 * s) with true by lia.
    replace ((7 - zlen V mod 7) mod 7) with n by (unfold n; Z.div_mod_to_equations; lia). fold crcv.
    rewrite (mangle_past ns _ Hns Hpast).
    cbn [app]. rewrite (end_upload_eq _ _ n) by lia.
    assert (Hdata : skipn 1 (firstn (Z.to_nat (8 - n)) ((s + 128) :: chunk ++ repeat 0 (7 - length chunk))) = chunk).
    { replace (Z.to_nat (8 - n)) with (S (length chunk)) by (unfold n, zlen; lia).
      cbn [firstn skipn]. apply firstn_app_exact. reflexivity. }
    rewrite Hdata.
    cbn [u_crcsup u_scrc u_crc u_pos u_size u_done u_ackseq u_error u_blksize].
    replace (crcv mod 256 + 256 * (crcv / 256)) with crcv by (Z.div_mod_to_equations; lia).
    assert (Hchk : cc && true && negb (crcv =? (if cc then crc_from crc chunk else crc)) = false).
    { unfold crcv. destruct cc eqn:Ecc; [|reflexivity]. rewrite (Hcrc eq_refl). cbn [andb]. lia. }
    cbn [UCF set_ackseq u_crcsup u_scrc u_crc u_pos u_size u_done u_ackseq u_error u_blksize]. rewrite Hchk. cbn [andb]. rewrite Hpos.
    assert (Hszchk : match (if si then Some (zlen V) else None) with Some s0 => negb (zlen V =? s0) | None => false end = false).
    { destruct si; [rewrite Z.eqb_refl|]; reflexivity. }
    rewrite Hszchk.
    change (zlen [[193 + 4 * n; crcv mod 256; crcv / 256; 0; 0; 0; 0; 0]]) with 1.
    eexists. unfold UCF, NUF.
    replace (if cc then crc_from crc chunk else crc) with (if cc then crc16 V else crc)
      by (destruct cc eqn:Ecc; [symmetry; apply Hcrc; reflexivity|reflexivity]).
    reflexivity.
  Qed.

  Lemma read_direct pos crc a sv (fr : frame) (q : list frame) nc ns log :
    (fb fr 0 =? 128) = false -> Z.land (fb fr 0) 127 = a + 1 ->
    ul_read usys (UCF false pos crc None a) (NUF sv (fr :: q) nc ns log) =
    read_tail usys (UCF false pos crc None (a + 1)) (NUF sv q nc ns log) fr.
  Proof.
    intros H128 Hseq. unfold ul_read. cbn [UCF u_done]. unfold NUF. rewrite (read_response_ok _ _ _ _ H128).
    cbv beta iota. rewrite Hseq. cbn [UCF u_ackseq]. rewrite Z.eqb_refl. reflexivity.
  Qed.

  (* a frame of the old sub-block behind a missing one: neither the next in sequence nor the first of a new sub-block *)
  Definition stale_ok (a : Z) (fr : frame) : Prop := (fb fr 0 =? 128) = false /\ a + 2 <= Z.land (fb fr 0) 127.

  (* time-out (nothing queued) or a sequence gap: _retransmit() *)
  Lemma read_stale pos crc a sv (q : list frame) nc ns log : Forall (stale_ok a) q ->
    ul_read usys (UCF false pos crc None a) (NUF sv q nc ns log) =
    match ul_retransmit usys (UCF false pos crc None a) (NUF sv (tl q) nc ns log) with
    | (Ok response', u2, w2) => read_tail usys u2 w2 response'
    | (Err k, u2, w2) => (Err k, u2, w2)
    | (Abort a0, u2, w2) => (Abort a0, u2, w2)
    end.
  Proof.
    intros Hq. destruct q as [|fr q]; [reflexivity|]. apply Forall_inv in Hq. destruct Hq as [H128 Hseq].
    unfold ul_read. cbn [UCF u_done tl]. unfold NUF. rewrite (read_response_ok _ _ _ _ H128).
    cbv beta iota. cbn [UCF u_ackseq].
    replace (Z.land (fb fr 0) 127 =? a + 1) with false by lia. reflexivity.
  Qed.

  (* _retransmit: acknowledge a, skip the stale frames, take the first frame of the new sub-block *)
  Lemma retx_skip (sv : usrv) nc ns log pos crc a : 0 <= a ->
    forall (stale : list frame) fuel (h : frame) (fresh : list frame),
    Forall (stale_ok a) stale -> (fb h 0 =? 128) = false -> Z.land (fb h 0) 127 = 1 -> (length stale < fuel)%nat ->
    retx_loop fuel (UCF false pos crc None 0) (NUF sv (stale ++ h :: fresh) nc ns log) =
    (Ok h, UCF false pos crc None 1, NUF sv fresh nc ns log).
  Proof.
    intros Ha. induction stale as [|x r IH]; intros fuel h fresh Hst H128 Hseq Hfuel.
    - destruct fuel as [|f]; [cbn in Hfuel; lia|]. cbn [retx_loop app]. unfold NUF. rewrite (read_response_ok _ _ _ _ H128).
      cbv beta iota. rewrite Hseq. reflexivity.
    - apply Forall_cons_iff in Hst. destruct Hst as [(X128 & Xseq) Hr].
      destruct fuel as [|f]; [cbn in Hfuel; lia|]. cbn [retx_loop app]. unfold NUF at 1. rewrite (read_response_ok _ _ _ _ X128).
      cbv beta iota. cbn [UCF u_ackseq]. change (0 + 1) with 1.
      replace (Z.land (fb x 0) 127 =? 1) with false by lia.
      apply (IH f h fresh Hr H128 Hseq). cbn in Hfuel. lia.
  Qed.

  Lemma seg_head (s : Z) (e : bool) (chunk : list Z) : 1 <= s <= 127 -> (length chunk <= 7)%nat ->
    let fr := pad8 ((s + (if e then 128 else 0)) :: chunk) in
    (fb fr 0 =? 128) = false /\ Z.land (fb fr 0) 127 = s.
  Proof.
    intros Hs Hc. destruct (seq_bits s Hs) as (L127 & _ & N128 & _ & L127' & _ & N128' & _). cbv zeta.
    rewrite pad8_cons by assumption. unfold fb. cbn [nth]. destruct e; [|rewrite Z.add_0_r]; split; assumption.
  Qed.

  Lemma us_segments_stale a : forall k s rest, a + 2 <= s -> 0 <= a -> s + Z.of_nat k <= 128 ->
    Forall (stale_ok a) (us_segments k s rest).
  Proof.
    induction k as [|k IH]; intros s rest Hs Ha Hk; cbn [us_segments]; [constructor|].
    destruct rest as [|x r]; [constructor|].
    assert (H7 : (length (firstn 7 (x :: r)) <= 7)%nat) by (rewrite firstn_length; lia).
    destruct (skipn 7 (x :: r)) eqn:E.
    - constructor; [|constructor]. destruct (seg_head s true (firstn 7 (x :: r)) ltac:(lia) H7) as [A Bq].
      split; [exact A|]. rewrite Bq. lia.
    - constructor; [|apply IH; lia]. destruct (seg_head s false (firstn 7 (x :: r)) ltac:(lia) H7) as [A Bq].
      rewrite Z.add_0_r in A, Bq. split; [exact A|]. rewrite Bq. lia.
  Qed.

  (* the first frame of a sub-block carries sequence number 1 *)
  Lemma burst_head rest : rest <> [] -> exists h fresh,
    us_segments (Z.to_nat B) 1 rest = h :: fresh /\ (fb h 0 =? 128) = false /\ Z.land (fb h 0) 127 = 1.
  Proof.
    intros Hne. replace (Z.to_nat B) with (S (Z.to_nat (B - 1))) by lia.
    assert (H7 : (length (firstn 7 rest) <= 7)%nat) by (rewrite firstn_length; lia).
    destruct (Z.ltb_spec 7 (zlen rest)) as [Hl|Hs].
    - rewrite us_segments_more by assumption. eexists _, _. split; [reflexivity|].
      pose proof (seg_head 1 false (firstn 7 rest) ltac:(lia) H7) as H. rewrite Z.add_0_r in H. exact H.
    - rewrite us_segments_last by assumption. destruct (seg_last rest Hne Hs) as (Hf & _). rewrite Hf in H7.
      eexists _, _. split; [reflexivity|]. exact (seg_head 1 true rest ltac:(lia) H7).
  Qed.

  (* a missing segment: the stale frames [q] are skipped, the sub-block is acknowledged up to [a] and sent again
     from there; read() then goes on as if it had just found that new sub-block queued *)
  Lemma read_hole pre rest crc a start sent ex (q : list frame) nc ns log :
    V = pre ++ rest -> rest <> [] -> start + 7 * a = zlen pre -> 0 <= a <= sent -> a <= 127 -> 0 <= ns -> j <= ns ->
    Forall (stale_ok a) q ->
    let burst := us_segments (Z.to_nat B) 1 rest in
    exists log',
    ul_read usys (UCF false (zlen pre) crc None a) (NUF (USF 2 start sent ex) q nc ns log) =
    ul_read usys (UCF false (zlen pre) crc None 0)
            (NUF (USF 2 (zlen pre) (zlen burst) (ex && (a =? sent))) burst (nc + 1) (ns + zlen burst) log').
  Proof.
    intros HV Hne Hstart Ha Ha127 Hns Hpast Hq burst.
    destruct (burst_head rest Hne) as (h & fresh & Hb & H128 & Hseq). fold burst in Hb.
    rewrite (read_stale _ _ _ _ _ _ _ _ Hq).
    assert (Hrest : 0 < zlen rest) by (destruct rest; [contradiction|rewrite zlen_cons; pose proof (zlen_nonneg rest); lia]).
    unfold ul_retransmit. destruct (ack_eq (zlen pre) crc a start sent ex (tl q) nc ns log ltac:(lia)) as [log' ->].
    replace (zlen V <=? start + 7 * a) with false by (rewrite HV, zlen_app; lia).
    rewrite Hstart, (burst_at_pre pre rest HV). fold burst. rewrite (mangle_past ns _ Hns Hpast), Hb. cbv beta iota.
    exists log'.
    rewrite (retx_skip _ _ _ _ (zlen pre) crc a ltac:(lia) (tl q) _ h fresh); try assumption.
    - symmetry. apply read_direct; assumption.
    - destruct q; [constructor|apply Forall_inv_tail in Hq; exact Hq].
    - cbn [NUF n_q]. rewrite app_length. cbn [length]. lia.
  Qed.

  (* the queue [l] with the frame at position i missing; [hdec]: where the gap is once the head has been read *)
  Definition hole (h : option nat) (l : list frame) : list frame :=
    match h with Some i => remove_nth i l | None => l end.
  Definition hdec (h : option nat) : option nat := match h with Some (S i) => Some i | _ => None end.

  Lemma hole_cons h x l : h <> Some 0%nat -> hole h (x :: l) = x :: hole (hdec h) l.
  Proof. destruct h as [[|i]|]; [contradiction|reflexivity..]. Qed.

  (* between two read() calls: [pre], [q] full segments, has been handed out, [rest] is to come; of the sub-block
     under way [a] segments have been read, [segs] are the others as the server sent them, and the queue holds them,
     all of them (h = None) or all but the one at position i (h = Some i).  Before frame j is due (h = None, ns < j)
     the server has emitted ns frames: the initiate response and every segment up to the end of this sub-block *)
  Definition US (h : option nat) (pre rest : list Z) (u : ul) (w : NetU) : Prop :=
    exists a start ex nc ns log crc segs q,
      segs = us_segments (Z.to_nat (B - a)) (a + 1) rest /\
      u = UCF false (zlen pre) crc None a /\
      w = NUF (USF 2 start (a + zlen segs) ex) (hole h segs) nc ns log /\
      0 <= a < B /\ start + 7 * a = zlen pre /\ zlen pre = 7 * q /\ (cc = true -> crc = crc16 pre) /\
      (j <= 1 -> ex = true) /\ 1 <= ns /\
      match h with
      | Some i => (i < length segs)%nat /\ 2 <= j <= ns
      | None => j <= ns \/ ns = 1 + q + zlen segs
      end.

  Definition UDONE (u : ul) (w : NetU) : Prop :=
    exists start ex nc ns log crc,
      u = UCF true (zlen V) crc (Some (if cc then crc16 V else 0)) 0 /\ w = NUF (USF 3 start 0 ex) [] nc ns log /\
      (j <= 1 -> ex = true).

  (* a sub-block freshly sent by the server, as it reaches the queue: whole, or without frame j *)
  Lemma US_burst pre q rest ex nc ns log crc :
    1 <= ns -> zlen pre = 7 * q -> (cc = true -> crc = crc16 pre) -> (j <= 1 -> ex = true) ->
    j <= ns \/ ns = 1 + q ->
    let burst := us_segments (Z.to_nat B) 1 rest in
    exists h, US h pre rest (UCF false (zlen pre) crc None 0)
                (NUF (USF 2 (zlen pre) (zlen burst) ex) (mangle faults ns burst) nc (ns + zlen burst) log).
  Proof.
    intros Hns Hmod Hcrc Hex Hmode burst. pose proof (zlen_nonneg burst) as Hb0. rewrite Hdrop by lia.
    destruct ((ns <? j) && (j <=? ns + zlen burst)) eqn:Ehit; [exists (Some (Z.to_nat (j - ns - 1)))|exists None];
      eexists 0, (zlen pre), ex, _, _, _, crc, _, q; rewrite Z.sub_0_r; change (0 + 1) with 1; fold burst;
      (split; [reflexivity|]); (split; [reflexivity|]); (split; [reflexivity|]); (split; [lia|]); (split; [lia|]);
      (split; [exact Hmod|]); (split; [exact Hcrc|]); (split; [exact Hex|]); (split; [lia|]).
    - unfold zlen in *. lia.
    - destruct Hmode as [Hp|Hcount]; [left; lia|]. destruct (Z.le_gt_cases j ns); [left; lia|right; lia].
  Qed.

  (* if the frame at the head of the queue is the missing one, read() first has the sub-block sent again *)
  Lemma hole_step h pre rest u w : V = pre ++ rest -> rest <> [] -> US h pre rest u w ->
    exists h0 u0 w0, h0 <> Some 0%nat /\ ul_read usys u w = ul_read usys u0 w0 /\ US h0 pre rest u0 w0.
  Proof.
    intros HV Hne HU. destruct h as [[|i]|]; [|exists (Some (S i)), u, w|exists None, u, w];
      [|split; [discriminate|split; [reflexivity|exact HU]]..].
    destruct HU as (a & start & ex & nc & ns & log & crc & segs & q & Hsegs & -> & -> & Ha & Hstart & Hmod & Hcrc & Hex & Hns & Hi & Hj).
    assert (Hq : Forall (stale_ok a) (remove_nth 0 segs)).
    { rewrite Hsegs. replace (Z.to_nat (B - a)) with (S (Z.to_nat (B - a - 1))) by lia.
      destruct (Z.ltb_spec 7 (zlen rest)); [rewrite us_segments_more|rewrite us_segments_last]; try assumption.
      - apply us_segments_stale; lia.
      - constructor. }
    assert (Hz : 1 <= zlen segs) by (unfold zlen; lia).
    destruct (read_hole pre rest crc a start (a + zlen segs) ex (remove_nth 0 segs) nc ns log HV Hne Hstart
                ltac:(lia) ltac:(lia) ltac:(lia) ltac:(lia) Hq) as (log' & Hr).
    exists None. eexists _, _. split; [discriminate|]. split; [exact Hr|].
    eexists 0, (zlen pre), _, _, _, _, crc, _, q. rewrite Z.sub_0_r.
    split; [reflexivity|]. split; [reflexivity|]. split; [reflexivity|]. split; [lia|]. split; [lia|]. split; [exact Hmod|]. split; [exact Hcrc|].
    split; [lia|]. pose proof (zlen_nonneg (us_segments (Z.to_nat B) 1 rest)). split; [lia|]. left. lia.
  Qed.

  (* with the next segment at the head of the queue, read() hands out the next 7 bytes, or the rest and the stream is
     done; the bound on j says that the lost frame is a segment and not the end frame *)
  Lemma good_step h pre rest u w :
    V = pre ++ rest -> rest <> [] -> 7 * (j - 1) <= zlen V + 6 -> h <> Some 0%nat -> US h pre rest u w ->
    exists u' w', ul_read usys u w = (Ok (firstn 7 rest), u', w') /\
      if 7 <? zlen rest then exists h', US h' (pre ++ firstn 7 rest) (skipn 7 rest) u' w' else UDONE u' w'.
  Proof.
    intros HV Hne Hjmax Hh (a & start & ex & nc & ns & log & crc & segs & q & -> & -> & -> & Ha & Hstart & Hmod & Hcrc & Hex & Hns & Hmode).
    assert (HlenV : zlen V = zlen pre + zlen rest) by (rewrite HV; apply zlen_app).
    replace (Z.to_nat (B - a)) with (S (Z.to_nat (B - a - 1))) in * by lia.
    destruct (Z.ltb_spec 7 (zlen rest)) as [Hlong|Hshort].
    - destruct (seg_more rest Hlong) as (H7 & Hne' & Hz).
      rewrite us_segments_more in * by assumption.
      set (chunk := firstn 7 rest) in *. set (more := skipn 7 rest) in *.
      set (segs' := us_segments (Z.to_nat (B - a - 1)) (a + 1 + 1) more) in *.
      pose proof (zlen_nonneg segs') as Hs0.
      destruct (seg_head (a + 1) false chunk ltac:(lia) ltac:(unfold len7 in H7; lia)) as [H128 Hseq].
      rewrite Z.add_0_r in H128, Hseq.
      set (q' := hole (hdec h) segs').
      rewrite (hole_cons h _ _ Hh). fold q'. rewrite (read_direct _ _ _ _ _ _ _ _ _ H128 Hseq).
      rewrite zlen_cons in *.
      destruct (tail_mid (zlen pre) crc (a + 1) q' start (a + (1 + zlen segs')) ex nc ns log chunk ltac:(lia) H7
                  ltac:(lia)) as (log' & ->).
      eexists _, _. split; [reflexivity|].
      assert (HV' : V = (pre ++ chunk) ++ more) by (rewrite <- app_assoc; unfold chunk, more; rewrite firstn_skipn; exact HV).
      assert (Hzp : zlen pre + 7 = zlen (pre ++ chunk)) by (rewrite zlen_app, (len7_zlen chunk H7); reflexivity).
      assert (Hmod' : zlen (pre ++ chunk) = 7 * (q + 1)) by lia.
      assert (Hcrc' : cc = true -> (if cc then crc_from crc chunk else crc) = crc16 (pre ++ chunk)).
      { intros Hc. rewrite Hc, (Hcrc Hc). symmetry. apply crc16_app. }
      rewrite Hzp.
      destruct (Z.eq_dec (a + 1) B) as [He|Hne2].
      + replace (a + 1 =? B) with true by lia.
        assert (Hs' : segs' = []) by (unfold segs'; replace (Z.to_nat (B - a - 1)) with 0%nat by lia; reflexivity).
        assert (Hq' : q' = []).
        { unfold q'. rewrite Hs'. destruct h as [[|[|i]]|]; reflexivity. }
        rewrite Hq', Hs' in *. cbn [app]. change (zlen (@nil frame)) with 0 in *.
        replace (start + 7 * B) with (zlen (pre ++ chunk)) by lia.
        rewrite (burst_at_pre (pre ++ chunk) more HV').
        apply (US_burst _ (q + 1)); [lia|exact Hmod'|exact Hcrc'|intros Hj1; rewrite (Hex Hj1); lia|].
        destruct h as [[|i]|]; [contradiction|lia|]. destruct Hmode as [Hp|Hcount]; [left; exact Hp|right; lia].
      + replace (a + 1 =? B) with false by lia.
        exists (hdec h).
        eexists (a + 1), start, ex, nc, ns, log, _, _, (q + 1).
        replace (Z.to_nat (B - (a + 1))) with (Z.to_nat (B - a - 1)) by lia. fold segs'.
        split; [reflexivity|]. split; [reflexivity|]. split.
        { replace (a + 1 + zlen segs') with (a + (1 + zlen segs')) by lia. reflexivity. }
        split; [lia|]. split; [lia|]. split; [exact Hmod'|]. split; [exact Hcrc'|]. split; [exact Hex|]. split; [exact Hns|].
        destruct h as [[|i]|]; [contradiction| |]; cbn [hdec].
        * cbn [length] in Hmode. split; [lia|apply Hmode].
        * destruct Hmode as [Hp|Hcount]; [left; exact Hp|right; lia].
    - destruct (seg_last rest Hne Hshort) as (Hf & _ & Hlen).
      rewrite us_segments_last in * by assumption. rewrite Hf.
      rewrite (hole_cons h _ _ Hh).
      assert (Hh0 : hole (hdec h) (@nil (list Z)) = []) by (destruct h as [[|[|i]]|]; reflexivity).
      rewrite Hh0. change (zlen [pad8 (a + 1 + 128 :: rest)]) with 1 in *.
      destruct (seg_head (a + 1) true rest ltac:(lia) ltac:(lia)) as [H128 Hseq].
      rewrite (read_direct _ _ _ _ _ _ _ _ _ H128 Hseq).
      assert (Hpast : j <= ns).
      { destruct h as [[|i]|]; [contradiction|lia|]. destruct Hmode as [Hp|Hcount]; [exact Hp|]. unfold zlen in *. lia. }
      destruct (tail_last (zlen pre) q crc (a + 1) start (a + 1) ex nc ns log rest ltac:(lia) Hlen ltac:(lia)
                  ltac:(unfold zlen in *; lia) ltac:(lia) Hmod ltac:(lia) Hpast) as (log' & ->).
      { intros Hc. rewrite (Hcrc Hc), HV. symmetry. apply crc_from_app. }
      eexists _, _. split; [reflexivity|]. eexists _, _, _, _, _, _. split; [reflexivity|]. split; [reflexivity|].
      intros Hj1. rewrite (Hex Hj1), Z.eqb_refl. reflexivity.
  Qed.

  Lemma readall_run : forall fuel h pre rest u w,
    V = pre ++ rest -> rest <> [] -> 7 * (j - 1) <= zlen V + 6 -> (length rest < fuel)%nat -> US h pre rest u w ->
    exists u' w', readall usys fuel u w pre = (Ok V, u', w') /\ UDONE u' w'.
  Proof.
    induction fuel as [|f IH]; intros h pre rest u w HV Hne Hjmax Hfuel HU; [lia|].
    destruct (hole_step h pre rest u w HV Hne HU) as (h0 & u0 & w0 & Hh0 & Hr0 & HU0).
    destruct (good_step h0 pre rest u0 w0 HV Hne Hjmax Hh0 HU0) as (u' & w' & Hr & Hpost). rewrite <- Hr0 in Hr.
    assert (Hc : firstn 7 rest <> []) by (destruct rest; [contradiction|discriminate]).
    rewrite (readall_step f _ _ pre _ _ _ Hc Hr).
    destruct (Z.ltb_spec 7 (zlen rest)) as [Hlong|Hshort].
    - destruct Hpost as (h' & HU'). destruct (seg_more rest Hlong) as (_ & Hne' & Hz).
      apply (IH h' _ (skipn 7 rest)); [rewrite <- app_assoc, firstn_skipn; exact HV|exact Hne'|exact Hjmax| |exact HU'].
      unfold zlen in *. lia.
    - destruct (seg_last rest Hne Hshort) as (-> & _). rewrite <- HV.
      destruct Hpost as (start & ex & nc & ns & log & crc & -> & HD).
      destruct f as [|f]; [destruct rest; [contradiction|cbn in Hfuel; lia]|].
      cbn [readall ul_read UCF u_done]. eexists _, _. split; [reflexivity|].
      exists start, ex, nc, ns, log, crc. split; [reflexivity|exact HD].
  Qed.

  (* the idle server on the initiate request, and on the start request that follows *)
  Lemma usrv_init index sub :
    ul_srv (us_init V crc_en si) false (ul_init_request index sub B crc_client) =
    (mkus 1 V crc_en cc B 0 0 true false 0 false si,
     [(192 + (if si then 2 else 0) + (if crc_en then 4 else 0)) :: [index mod 256; index / 256; sub] ++
      (if si then le_encode 4 (zlen V) else [0; 0; 0; 0])]).
  Proof.
    destruct (init_bits (160 + (if crc_client then 4 else 0)) 160 false crc_client (or_introl eq_refl) eq_refl)
      as (Q128 & Q224 & Q3 & Q2 & _).
    replace (ul_init_request index sub B crc_client)
      with [160 + (if crc_client then 4 else 0); index mod 256; index / 256; sub; B; 0; 0; 0]
      by (unfold ul_init_request; destruct crc_client; reflexivity).
    unfold ul_srv, us_init, fb. cbn [length Nat.eqb negb nth]. rewrite Q128, Q224, Q3, Q2.
    cbn [negb us_state Z.eqb Pos.eqb andb us_value us_crc_en us_bad us_aborted us_sizeind firstn skipn].
    replace ((1 <=? B) && (B <=? 127)) with true by lia. reflexivity.
  Qed.

  Lemma usrv_start :
    ul_srv (mkus 1 V crc_en cc B 0 0 true false 0 false si) false ul_start_request = (USF 2 0 (zlen (burst_at 0)) true, burst_at 0).
  Proof.
    unfold ul_srv, ul_start_request, fb. cbn [length Nat.eqb negb nth].
    change (Z.lor REQUEST_BLOCK_UPLOAD START_BLOCK_UPLOAD) with 163.
    change (163 =? 128) with false. change (Z.land 163 224 =? 160) with true. change (Z.land 163 3) with 3.
    cbn [negb us_state Z.eqb Pos.eqb andb]. unfold us_send_block.
    cbn [us_blksize us_acks_exact us_bad us_value us_crc_en us_cc us_ended us_aborted us_sizeind]. reflexivity.
  Qed.

  (* __init__ and the start request; the initiate response is server frame 1 *)
  Lemma ul_init_okF index sub : zlen V < 4294967296 -> j <> 1 ->
    let burst := us_segments (Z.to_nat B) 1 V in
    exists log,
      ul_init usys (mknet (fs_init (us_init V crc_en si) faults) [] []) index sub B crc_client =
      (Ok (UCF false 0 0 None 0), NUF (USF 2 0 (zlen burst) true) (mangle faults 1 burst) 2 (1 + zlen burst) log).
  Proof.
    intros Hsz Hj1 burst. pose proof (zlen_nonneg V) as HV0.
    unfold ul_init, request_response, fs_init. cbn [n_q].
    pose proof (usend_requestF _ [] 0 0 [] _ _ _ (usrv_init index sub)) as Hsend. unfold NUF in Hsend. rewrite Hsend. clear Hsend.
    set (r0 := 192 + (if si then 2 else 0) + (if crc_en then 4 else 0)).
    destruct (init_bits r0 192 si crc_en (or_intror eq_refl) eq_refl) as (R128 & R224 & _ & _ & RS & RC).
    set (szb := if si then le_encode 4 (zlen V) else [0; 0; 0; 0]).
    rewrite !(Hdrop 0) by lia. change (zlen [r0 :: [index mod 256; index / 256; sub] ++ szb]) with 1.
    replace ((0 <? j) && (j <=? 0 + 1)) with false by lia.
    cbn [app]. rewrite read_response_ok by exact R128.
    cbv beta iota. unfold fb. cbn [nth]. rewrite R224, RS, RC. change (192 =? RESPONSE_BLOCK_UPLOAD) with true.
    replace (index mod 256 + 256 * (index / 256) =? index) with true by (Z.div_mod_to_equations; lia).
    rewrite Z.eqb_refl. cbn [negb orb].
    change (skipn 4 (r0 :: index mod 256 :: index / 256 :: sub :: szb)) with szb.
    assert (Hsize : (if negb si then None else Some (le_decode (firstn 4 szb))) = (if si then Some (zlen V) else None)).
    { unfold szb. destruct si; cbn [negb]; [|reflexivity].
      rewrite (firstn_all2 (n := 4) (le_encode 4 (zlen V))) by (rewrite le_encode_length; lia).
      rewrite le_decode_encode_small by (change (2 ^ (8 * Z.of_nat 4)) with 4294967296; lia). reflexivity. }
    rewrite Hsize.
    change (mknet (mkfs ?sv ?nc ?ns faults) ?q ?log) with (NUF sv q nc ns log).
    rewrite (usend_requestF _ _ _ _ _ _ _ _ usrv_start).
    eexists. unfold UCF, NUF. reflexivity.
  Qed.

  Lemma ul_close_ok u w : UDONE u w ->
    us_ended (f_inner (n_srv (ul_close usys u w))) = true /\ us_bad (f_inner (n_srv (ul_close usys u w))) = 0 /\
    (j <= 1 -> us_acks_exact (f_inner (n_srv (ul_close usys u w))) = true).
  Proof.
    intros (start & ex & nc & ns & log & crc & -> & -> & Hex).
    unfold ul_close. cbn [UCF u_done u_error negb andb].
    assert (Hsrv : ul_srv (USF 3 start 0 ex) false ul_end_request =
                   (mkus 0 V crc_en cc B start 0 ex true 0 false si, [])).
    { unfold ul_srv, ul_end_request, fb. cbn [length Nat.eqb negb nth].
      change (Z.lor REQUEST_BLOCK_UPLOAD END_BLOCK_TRANSFER) with 161.
      change (161 =? 128) with false. change (Z.land 161 224 =? 160) with true. change (Z.land 161 3) with 1.
      cbn [negb USF us_state Z.eqb Pos.eqb andb]. reflexivity. }
    rewrite (usend_requestF _ _ _ _ _ _ _ _ Hsrv). cbn. repeat split; try reflexivity. exact Hex.
  Qed.

  (* the whole transfer: server frame j is lost, or none (j <= 0) *)
  Lemma upload_run index sub fuel :
    1 <= zlen V < 4294967296 -> j <> 1 -> j <= 1 + (zlen V + 6) / 7 -> (length V + 1 < fuel)%nat ->
    exists u w,
      ul_transfer usys fuel (mknet (fs_init (us_init V crc_en si) faults) [] []) index sub B crc_client = (Ok V, u, w) /\
      u_done u = true /\ u_error u = false /\
      us_ended (f_inner (n_srv w)) = true /\ us_bad (f_inner (n_srv w)) = 0 /\
      (j <= 1 -> us_acks_exact (f_inner (n_srv w)) = true).
  Proof.
    intros HV Hj1 Hjmax Hfuel.
    destruct (ul_init_okF index sub ltac:(lia) Hj1) as (log & Hinit). cbv zeta in Hinit.
    unfold ul_transfer. rewrite Hinit.
    assert (HVne : V <> []) by (intros E; rewrite E in HV; cbn in HV; lia).
    destruct (US_burst [] 0 V true 2 1 log 0) as (h & HU); try reflexivity; [right; reflexivity|]. cbv zeta in HU. change (zlen (@nil Z)) with 0 in HU.
    destruct (readall_run fuel h [] V _ _ eq_refl HVne ltac:(Z.div_mod_to_equations; lia) ltac:(lia) HU) as (u' & w' & -> & HD).
    pose proof (ul_close_ok u' w' HD) as HC. pose proof HD as (start & ex & nc & ns & log' & crc & -> & _).
    eexists _, _. split; [reflexivity|]. split; [reflexivity|]. split; [reflexivity|]. exact HC.
  Qed.
End UploadF.

Lemma block_upload_exact : forall (V : list Z) (B index sub : Z) (crc_client crc_server size_ind : bool) (fuel : nat),
  1 <= zlen V < 4294967296 -> 1 <= B <= 127 -> (length V + 1 < fuel)%nat ->
  exists u w,
    ul_transfer (faulty ul_srv) fuel (mknet (fs_init (us_init V crc_server size_ind) []) [] []) index sub B crc_client = (Ok V, u, w) /\
    u_done u = true /\ u_error u = false /\
    us_ended (f_inner (n_srv w)) = true /\ us_acks_exact (f_inner (n_srv w)) = true /\ us_bad (f_inner (n_srv w)) = 0.
Proof.
  intros V B index sub crc_client crc_server size_ind fuel HV HB Hfuel.
  destruct (upload_run V B crc_client crc_server size_ind [] HB (fun _ => eq_refl) 0) with (index := index) (sub := sub) (fuel := fuel)
    as (u & w & H1 & H2 & H3 & H4 & H5 & H6); try (Z.div_mod_to_equations; lia).
  - intros ns outs Hns. rewrite (mangle_dropc [] ns outs (Forall_nil _)). replace (ns <? 0) with false by lia. reflexivity.
  - exists u, w. repeat (split; [assumption|]). split; [apply H6; lia|assumption].
Qed.

Lemma upload_single_loss_repaired :
  forall (V : list Z) (B index sub : Z) (crc_client crc_server size_ind : bool) (fuel : nat) (j : Z),
  1 <= zlen V < 4294967296 -> 1 <= B <= 127 -> (length V + 1 < fuel)%nat ->
  2 <= j <= 1 + (zlen V + 6) / 7 ->
  exists u w,
    ul_transfer (faulty ul_srv) fuel (mknet (fs_init (us_init V crc_server size_ind) [FDropS j]) [] []) index sub B crc_client = (Ok V, u, w) /\
    u_done u = true /\ u_error u = false /\ us_ended (f_inner (n_srv w)) = true /\ us_bad (f_inner (n_srv w)) = 0.
Proof.
  intros V B index sub crc_client crc_server size_ind fuel j HV HB Hfuel Hj.
  destruct (upload_run V B crc_client crc_server size_ind [FDropS j] HB (fun _ => eq_refl) j
              (fun ns outs _ => mangle_single_drop j outs ns) index sub fuel HV ltac:(lia) ltac:(lia) Hfuel)
    as (u & w & H1 & H2 & H3 & H4 & H5 & _).
  exists u, w. repeat (split; [assumption|]). assumption.
Qed.

(* C13: the readinto()-then-read() caller hands out the same byte stream as read() alone *)
Section ReadInto.
  Context {S : Type} (srv : S -> frame -> S * list frame).
  Context (Hsrv8 : forall s fr, Forall len8 (snd (srv s fr))).
  Notation net := (@net S).
  Notation q8 := (qF len8).

  (* the readinto() calls have consumed what n iterations of readall consume, and left it where they leave it *)
  Definition ri_post (u : ul) (w : net) (start : list Z) (x : RU (list Z) * list Z) : Prop :=
    match x with
    | ((Ok acc', u', w'), pend') =>
        q8 w' /\ exists n, forall fuel, readall srv (n + Datatypes.S fuel) u w start = readall srv (Datatypes.S fuel) u' w' (acc' ++ pend')
    | (failed, _) => exists n, forall fuel, readall srv (n + Datatypes.S fuel) u w start = failed
    end.

  Lemma readinto_all_equiv : forall ks u pend (w : net) acc,
    q8 w -> ri_post u w (acc ++ pend) (ul_readinto_all srv ks u pend w acc).
  Proof.
    induction ks as [|k r IH]; intros u pend w acc Hq.
    - split; [exact Hq|]. exists 0%nat. reflexivity.
    - cbn [ul_readinto_all]. unfold ul_readinto. destruct pend as [|p0 pend0].
      + rewrite app_nil_r. destruct (ul_read srv u w) as [[[d|e|a] u1] w1] eqn:Er; [|exists 0%nat; intros fuel; cbn [Nat.add readall]; rewrite Er; reflexivity..].
        destruct (ul_read_ok srv len8 Hsrv8 _ _ _ _ _ Hq Er) as (Hq1 & Hdone & _). specialize (Hdone (fun _ H8 => H8)).
        specialize (IH u1 (skipn (Z.to_nat k) d) w1 (acc ++ firstn (Z.to_nat k) d) Hq1).
        rewrite <- app_assoc, firstn_skipn in IH.
        (* the read() in front is one more iteration of readall, or none if it found the stream finished *)
        assert (Hpre : exists m, forall i, (1 <= i)%nat -> readall srv (m + i) u w acc = readall srv i u1 w1 (acc ++ d)).
        { destruct d as [|x d'].
          - exists 0%nat. intros [|i] Hi; [lia|]. rewrite app_nil_r. cbn [Nat.add readall]. rewrite Er.
            unfold ul_read. rewrite (Hdone eq_refl). reflexivity.
          - exists 1%nat. intros i _. cbn [Nat.add readall]. rewrite Er. reflexivity. }
        destruct Hpre as [m Hm].
        destruct (ul_readinto_all srv r u1 _ w1 _) as [[[[acc'|e'|a'] u'] w'] pend']; cbn [ri_post] in IH |- *;
          [destruct IH as [Hq' IH]; split; [exact Hq'|]|..];
          (destruct IH as [n Hn]; exists (m + n)%nat; intros fuel; rewrite <- Nat.add_assoc, Hm by lia; apply Hn).
      + specialize (IH u (skipn (Z.to_nat k) (p0 :: pend0)) w (acc ++ firstn (Z.to_nat k) (p0 :: pend0)) Hq).
        rewrite <- app_assoc, firstn_skipn in IH. exact IH.
  Qed.

  (* the with-block: same result as f.read() alone with a little more fuel *)
  Lemma transfer_ri_equiv fuel w index sub blksize crc ks :
    exists n, ul_transfer_ri srv (Datatypes.S fuel) w index sub blksize crc ks =
              ul_transfer srv (n + Datatypes.S fuel) w index sub blksize crc.
  Proof.
    unfold ul_transfer_ri, ul_transfer.
    destruct (ul_init srv w index sub blksize crc) as [[u0|e|a] w1] eqn:Ei; try (exists 0%nat; reflexivity).
    pose proof (readinto_all_equiv ks u0 [] w1 [] (proj2 (ul_init_ok srv len8 Hsrv8 _ _ _ _ _ _ _ Ei))) as H. cbn [app] in H.
    destruct (ul_readinto_all srv ks u0 [] w1 []) as [[[[acc'|e'|a'] u'] w'] pend']; cbn [ri_post] in H;
      [destruct H as [_ H]|..]; destruct H as [n Hn]; exists n; unfold ul_read_rest; rewrite Hn; reflexivity.
  Qed.
End ReadInto.

(* C13 readinto_exact: the undisturbed transfer read through readinto() with arbitrary (small) buffers and a final
   read() returns exactly the value as well *)
Lemma readinto_exact : forall (V : list Z) (B index sub : Z) (crc_client crc_server size_ind : bool) (fuel : nat) (ks : list Z),
  1 <= zlen V < 4294967296 -> 1 <= B <= 127 -> (length V + 1 < fuel)%nat ->
  exists u w,
    ul_transfer_ri (faulty ul_srv) fuel (mknet (fs_init (us_init V crc_server size_ind) []) [] []) index sub B crc_client ks = (Ok V, u, w) /\
    u_done u = true /\ u_error u = false /\
    us_ended (f_inner (n_srv w)) = true /\ us_acks_exact (f_inner (n_srv w)) = true /\ us_bad (f_inner (n_srv w)) = 0.
Proof.
  intros V B index sub crc_client crc_server size_ind fuel ks HV HB Hfuel.
  destruct fuel as [|f]; [lia|].
  destruct (transfer_ri_equiv (faulty ul_srv) (faulty_len8 ul_srv ul_srv_len8) f
              (mknet (fs_init (us_init V crc_server size_ind) []) [] []) index sub B crc_client ks) as [n Hn].
  rewrite Hn. apply block_upload_exact; try assumption. lia.
Qed.
