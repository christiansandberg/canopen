(* Source tie (DESIGN.md 4.3) for C05: the definitions translated from the CURRENT source text (Gen/SrcC05.v, tools/py2coq.py)
   are equal to the hand-written model definitions the C05 theorems are about. *)
From Coq Require Import ZArith List Bool Lia.
From CV Require Import Base.Bytes Base.Bits Base.PyLib Gen.SrcC05 Model.Codec Model.Pdo.
Import ListNotations.
Open Scope Z_scope.

Lemma shiftl1_ones n : 0 <= n -> Z.shiftl 1 n - 1 = Z.ones n.
Proof. intros. rewrite Z.shiftl_1_l, Z.ones_equiv. lia. Qed.

Lemma py_to_bytes_eq size s v : py_to_bytes size s v = to_bytes size s v.
Proof. unfold py_to_bytes, to_bytes, in_range. destruct s; reflexivity. Qed.

Lemma land_pow2_testbit d n : 0 <= n -> negb (Z.land d (Z.shiftl 1 n) =? 0) = Z.testbit d n.
Proof.
  intros Hn. rewrite Z.shiftl_1_l, land_pow2 by exact Hn. pose proof (Z.pow_pos_nonneg 2 n).
  destruct (Z.testbit d n); [|reflexivity]. now replace (2 ^ n =? 0) with false by lia.
Qed.

(* PdoVariable.get_data, as translated from the source, is the model's pdo_get_data *)
Theorem src_pdo_get_data_eq frame dt off len : 0 <= off -> 1 <= len ->
  src_pdo_get_data frame (is_signed dt) (od_size dt) off len = pdo_get_data frame dt off len.
Proof.
  intros _ Hl. unfold src_pdo_get_data, pdo_get_data, get_field.
  cbv zeta. rewrite shiftl1_ones by lia.
  destruct (negb (off mod 8 =? 0) || negb (len mod 8 =? 0)); [|reflexivity].
  rewrite land_pow2_testbit by lia. rewrite Z.shiftl_1_l.
  destruct (is_signed dt && Z.testbit (Z.land (Z.shiftr (le_decode frame) off) (Z.ones len)) (len - 1));
    now rewrite py_to_bytes_eq.
Qed.

(* PdoVariable.set_data, as translated from the source, is the model's pdo_set_data *)
Theorem src_pdo_set_data_eq frame off len data : 0 <= off -> 0 <= len ->
  src_pdo_set_data frame off len data = pdo_set_data frame off len data.
Proof.
  intros _ Hl. unfold src_pdo_set_data, pdo_set_data, set_field, py_splice.
  cbv zeta. rewrite shiftl1_ones by lia.
  destruct (negb (off mod 8 =? 0) || negb (len mod 8 =? 0)); [|reflexivity].
  now rewrite py_to_bytes_eq.
Qed.
