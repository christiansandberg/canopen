(* C13 - SDO block upload returns exactly the server's data or fails visibly.
   Statements only: each theorem is [exact] of a lemma of Proofs/{Block_proofs.v, Crc_proofs.v, Src_eq_c13.v};
   the examples are concrete instances.
   Model:  Model/BlockUl.v (BlockUploadStream.__init__/read/_retransmit/_ack_block/_end_upload/close, the with-block
           around f.read()), transport in Model/BlockDl.v, Model/Crc.v,
   peer:   Model/RefBlockServer.v (reference block upload server from CiA 301 + fault injector).

   ul_transfer srv fuel w0 index sub blksize crc_client = (result, final stream state u, final network w);
   u_done u = true <-> the stream saw the segment with the c bit and the end frame, i.e. close() sends the
   end response (when no error was flagged). *)
From Coq Require Import ZArith List Bool.
From CV Require Import Base.Val Base.Bytes Model.Crc Model.RefBlockServer Model.BlockDl Model.BlockUl Proofs.Crc_proofs Proofs.Block_proofs Gen.SdoTables Gen.SrcC13 Proofs.Src_eq_c13.
Import ListNotations.
Open Scope Z_scope.

(* Undisturbed: every value of length >= 1 (< 2^32), every client block size 1..127, all four CRC capability
   combinations, server announcing the size in its initiate response or not (size_ind, the s bit): the call returns exactly the value; every acknowledge carried the number of segments the server
   had sent (us_acks_exact), the final segment was trimmed by the announced count of unused bytes (the result is V),
   the transfer was closed (us_ended) and the server saw no protocol violation. *)
Theorem C13_block_upload_exact :
  forall (V : list Z) (B index sub : Z) (crc_client crc_server size_ind : bool) (fuel : nat),
  1 <= zlen V < 4294967296 -> 1 <= B <= 127 -> (length V + 1 < fuel)%nat ->
  exists u w,
    ul_transfer (faulty ul_srv) fuel (mknet (fs_init (us_init V crc_server size_ind) []) [] []) index sub B crc_client = (Ok V, u, w) /\
    u_done u = true /\ u_error u = false /\
    us_ended (f_inner (n_srv w)) = true /\ us_acks_exact (f_inner (n_srv w)) = true /\ us_bad (f_inner (n_srv w)) = 0.
Proof. exact block_upload_exact. Qed.

(* crc_guard / size_guard, against ANY peer (any state type, any behaviour, any loss / corruption / reordering of
   what it sends): a completed transfer (u_done) that returns normally returned data whose CRC-16 is the CRC
   announced in the end frame whenever the CRC was negotiated, and whose length is the size announced in the
   initiate response whenever one was announced.  Hence: honest announcements + data that differ in CRC or in
   length can only end in an error. *)
Theorem C13_crc_guard :
  forall (S : Type) (srv : S -> frame -> S * list frame) (fuel : nat) (w : net) (index sub blksize : Z) (crc : bool)
         (data : list Z) (u : ul) (w' : net),
  ul_transfer srv fuel w index sub blksize crc = (Ok data, u, w') ->
  u_done u = true ->
  (u_crcsup u = true -> u_scrc u = Some (crc16 data)) /\
  (forall s, u_size u = Some s -> zlen data = s).
Proof. exact @crc_size_guard. Qed.

(* For the reference server behind ANY fault list (lost / corrupted / replaced / duplicated frames in both directions)
   the hypothesis u_done is redundant: only 8-byte frames are ever delivered, so a normal return is a completed
   transfer; its data have the announced CRC (when negotiated) and the announced length. *)
Theorem C13_crc_guard_ref :
  forall (V : list Z) (crc_server size_ind : bool) (faults : list fault) fuel index sub blksize crc data u w',
  ul_transfer (faulty ul_srv) fuel (mknet (fs_init (us_init V crc_server size_ind) faults) [] []) index sub blksize crc = (Ok data, u, w') ->
  u_done u = true /\
  (u_crcsup u = true -> u_scrc u = Some (crc16 data)) /\
  (forall s, u_size u = Some s -> zlen data = s).
Proof. exact crc_guard_ref. Qed.

(* One lost segment, whichever (the j-th frame of the server, 2 <= j <= 1 + number of segments; frame 1 is the
   initiate response), any value, any client block size, any CRC configuration: the loss is noticed (sequence gap or
   time-out), the sub-block is acknowledged up to the last good segment, the stale frames are skipped, and the call
   returns exactly the value; the transfer is closed and the server saw no protocol violation.
   (This is the behaviour after the fixes e896b3b and fc751a5; before them the statement was false, see notes/C13.md.) *)
Theorem C13_single_loss_repaired :
  forall (V : list Z) (B index sub : Z) (crc_client crc_server size_ind : bool) (fuel : nat) (j : Z),
  1 <= zlen V < 4294967296 -> 1 <= B <= 127 -> (length V + 1 < fuel)%nat ->
  2 <= j <= 1 + (zlen V + 6) / 7 ->
  exists u w,
    ul_transfer (faulty ul_srv) fuel (mknet (fs_init (us_init V crc_server size_ind) [FDropS j]) [] []) index sub B crc_client = (Ok V, u, w) /\
    u_done u = true /\ u_error u = false /\ us_ended (f_inner (n_srv w)) = true /\ us_bad (f_inner (n_srv w)) = 0.
Proof. exact upload_single_loss_repaired. Qed.

(* Other callers of the same stream: readinto() with arbitrary buffer sizes ks (smaller than a segment or not) on the raw
   stream, then read().  The part of a segment that does not fit is kept in _pending and handed out first.
   For ANY peer that only delivers 8-byte frames the result (data or error, final stream state, final network state) is the
   one of f.read() alone (with n more units of loop fuel): nothing is lost or duplicated at the seams. *)
Theorem C13_readinto_same_stream :
  forall (S : Type) (srv : S -> frame -> S * list frame),
  (forall s fr, Forall len8 (snd (srv s fr))) ->
  forall (fuel : nat) (w : net) (index sub blksize : Z) (crc : bool) (ks : list Z),
  exists n, ul_transfer_ri srv (Datatypes.S fuel) w index sub blksize crc ks =
            ul_transfer srv (n + Datatypes.S fuel) w index sub blksize crc.
Proof. exact @transfer_ri_equiv. Qed.

(* ... hence the undisturbed transfer read that way returns exactly the value, for every list of buffer sizes. *)
Theorem C13_readinto_exact :
  forall (V : list Z) (B index sub : Z) (crc_client crc_server size_ind : bool) (fuel : nat) (ks : list Z),
  1 <= zlen V < 4294967296 -> 1 <= B <= 127 -> (length V + 1 < fuel)%nat ->
  exists u w,
    ul_transfer_ri (faulty ul_srv) fuel (mknet (fs_init (us_init V crc_server size_ind) []) [] []) index sub B crc_client ks = (Ok V, u, w) /\
    u_done u = true /\ u_error u = false /\
    us_ended (f_inner (n_srv w)) = true /\ us_acks_exact (f_inner (n_srv w)) = true /\ us_bad (f_inner (n_srv w)) = 0.
Proof. exact readinto_exact. Qed.

(* CRC-16/XMODEM detects every single-bit corruption of a byte string of any length, from any register value
   (linearity over xor + the generator polynomial has constant term 1): flipping bit k of byte i changes the CRC. *)
Theorem C13_crc_single_bit : forall (data : list Z) (c : Z) (i : nat) (k : Z),
  (i < length data)%nat -> 0 <= k < 8 ->
  crc_from c (xor_at data i (2 ^ k)) <> crc_from c data.
Proof. exact crc_single_bit. Qed.

Theorem C13_crc_chunkwise : forall c chunks, fold_left crc_from chunks c = crc_from c (concat chunks).
Proof. exact crc_from_concat. Qed.

(* Source tie (DESIGN.md 4.3): source text -> model.  Gen/SrcC13.v is regenerated from the text of canopen/sdo/client.py on every run
   (tools/tables/src_c13.py).  SK u timed_out cmd_d cmd_r ack_r n cm dl = the translated read() on the stream state u
   (no _pending, size >= 0): timed_out = read_response() raised, cmd_d = command byte of the frame it returned,
   cmd_r / ack_r = command byte of the frame _retransmit() returned and the _ackseq it left, n = result of _end_upload(),
   cm = "announced CRC = CRC of the data", dl = len(data).  rd_* are the components of its result. *)
Theorem C13_src_read_dispatch : forall (S : Type) (srv : S -> frame -> S * list frame) u (w : @net S),
  ul_read srv u w =
  if rd_code (SK u false 0 0 0 0 true 0) =? 12 then (Ok [], u, w)
  else
    let via_retransmit w1 :=
      match ul_retransmit srv u w1 with
      | (Ok response', u2, w2) => read_tail srv u2 w2 response'
      | (Err k, u2, w2) => (Err k, u2, w2)
      | (Abort a, u2, w2) => (Abort a, u2, w2)
      end in
    match read_response w with
    | (Abort a, w1) => (Abort a, u, w1)
    | (Err _, w1) => via_retransmit w1
    | (Ok response, w1) =>
        let t := SK u false (fb response 0) 0 0 0 true 0 in
        if rd_nretx t =? 0 then read_tail srv (set_ackseq u (rd_ackseq t)) w1 response else via_retransmit w1
    end.
Proof. exact @src_ul_read_dispatch_eq. Qed.

Theorem C13_src_read_tail : forall (S : Type) (srv : S -> frame -> S * list frame) u (w : @net S) resp,
  u_done u = false ->
  read_tail srv u w resp =
  let sk := SK u true 0 (fb resp 0) (u_ackseq u) in
  let t0 := sk 0 true 0 in
  let '(u1, w1) := if rd_acked t0 then ack_block srv u w else (u, w) in
  let fin n (u2 : ul) (w2 : @net S) : @RU S (list Z) :=
    let data := skipn 1 (firstn (Z.to_nat (rd_hi (sk n true 0))) resp) in
    let crc' := if u_crcsup u then crc_from (u_crc u) data else u_crc u in
    let cm := match u_scrc u2 with Some sc => sc =? crc' | None => false end in
    let t := sk n cm (zlen data) in
    let u3 := mkul (rd_done t) (rd_pos t) (if rd_crcp t then crc_from (u_crc u) data else u_crc u) (u_scrc u2)
                   (u_ackseq u2) (rd_err t) (u_size u) (u_crcsup u) (u_blksize u) in
    if rd_code t =? 0 then (Err E_SDOCOMM, u3, client_abort srv w2 (rd_abort t)) else (Ok data, u3, w2) in
  if negb (Z.land (rd_rc t0) NO_MORE_BLOCKS =? 0) then
    match end_upload srv u1 w1 with
    | (Ok n, u2, w2) => fin n u2 w2
    | (Err k, u2, w2) => (Err k, u2, w2)
    | (Abort a, u2, w2) => (Abort a, u2, w2)
    end
  else fin 0 u1 w1.
Proof. exact @src_ul_read_tail_eq. Qed.

Theorem C13_src_ack_block : forall (S : Type) (srv : S -> frame -> S * list frame) u (w : @net S),
  ack_block srv u w =
  let '(b0, b1, b2, sent, a') := src_ul_ack_block (u_ackseq u) (u_blksize u) 0 0 0 false in
  (set_ackseq u a', if sent then send_request srv w [b0; b1; b2; 0; 0; 0; 0; 0] else w).
Proof. exact @src_ul_ack_block_eq. Qed.

Theorem C13_src_end_upload : forall (S : Type) (srv : S -> frame -> S * list frame) u (w : @net S),
  end_upload srv u w =
  match read_response w with
  | (Err k, w1) => (Err k, u, w1)
  | (Abort a, w1) => (Abort a, u, w1)
  | (Ok r, w1) =>
      let u1 := mkul (u_done u) (u_pos u) (u_crc u) (Some (fb r 1 + 256 * fb r 2)) (u_ackseq u)
                     (u_error u) (u_size u) (u_crcsup u) (u_blksize u) in
      let '(ok, v) := src_ul_end_upload (fb r 0) 0 in
      if ok =? 1 then (Ok v, u1, w1) else (Err E_SDOCOMM, set_error u1, client_abort srv w1 v)
  end.
Proof. exact @src_ul_end_upload_eq. Qed.

Theorem C13_src_readinto : forall (S : Type) (srv : S -> frame -> S * list frame) k u pend (w : @net S), 0 <= k ->
  match pend with
  | [] =>
      forall d u1 w1, ul_read srv u w = (Ok d, u1, w1) ->
      ul_readinto srv k u [] w = ((Ok (firstn (Z.to_nat k) d), u1, w1), skipn (Z.to_nat k) d) /\
      src_ul_readinto k 0 (zlen d) false = (true, zlen (firstn (Z.to_nat k) d), zlen (skipn (Z.to_nat k) d))
  | _ =>
      ul_readinto srv k u pend w = ((Ok (firstn (Z.to_nat k) pend), u, w), skipn (Z.to_nat k) pend) /\
      forall rlen, src_ul_readinto k (zlen pend) rlen false =
                   (false, zlen (firstn (Z.to_nat k) pend), zlen (skipn (Z.to_nat k) pend))
  end.
Proof. exact @src_ul_readinto_eq. Qed.

Theorem C13_src_close : forall (S : Type) (srv : S -> frame -> S * list frame) u (w : @net S),
  ul_close srv u w =
  (let '(b0, sent) := src_ul_close false (u_done u) (u_error u) 0 false in
   if sent then send_request srv w [b0; 0; 0; 0; 0; 0; 0; 0] else w) /\
  forall d e b s, src_ul_close true d e b s = (b, s).
Proof. exact @src_ul_close_eq. Qed.

Example C13_nv_exact :
  let V := gen_bytes 20 1 in
  1 <= zlen V < 4294967296 /\
  (let '(r, u, w) := ul_transfer (faulty ul_srv) 30 (mknet (fs_init (us_init V true true) []) [] []) 8192 0 2 true in
   r = Ok V /\ u_done u = true /\ u_crcsup u = true /\ u_scrc u = Some (crc16 V) /\ u_size u = Some 20 /\ length (n_log w) = 10%nat) /\
  (* a disturbed transfer that still completes: one lost segment, repaired *)
  (let '(r, u, w) := ul_transfer (faulty ul_srv) 30 (mknet (fs_init (us_init V true false) [FDropS 3]) [] []) 8192 0 2 true in
   r = Ok V /\ u_done u = true).
Proof. vm_compute. repeat split; try reflexivity; try discriminate. Qed.

Print Assumptions C13_block_upload_exact.
Print Assumptions C13_crc_guard.
Print Assumptions C13_crc_guard_ref.
Print Assumptions C13_single_loss_repaired.
Print Assumptions C13_readinto_same_stream.
Print Assumptions C13_readinto_exact.
Print Assumptions C13_crc_single_bit.
Print Assumptions C13_crc_chunkwise.
Print Assumptions C13_src_read_dispatch.
Print Assumptions C13_src_read_tail.
Print Assumptions C13_src_ack_block.
Print Assumptions C13_src_end_upload.
Print Assumptions C13_src_readinto.
Print Assumptions C13_src_close.
