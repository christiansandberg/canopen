(* C15 - A PDO value set by the producer is the value the consumer reads.
   Statements only: each theorem is [exact] of a lemma of Proofs/{PdoLink_proofs.v, Src_eq_c15.v};
   the examples are concrete instances.
   Model: Model/PdoLink.v (PdoMap.transmit,
   on_message, add_callback, remote_request, subscribe; Network.subscribe / notify for PDO handlers)
   over Model/Pdo.v (C05).  wf_world = "the subscriber table holds no handler twice", an invariant of
   every operation sequence (C15_wf_invariant). The wake-up of wait_for_reception (condition variable)
   is not modelled: it is exercised with a real second thread by the harness only. *)
From Coq Require Import ZArith List Bool.
From CV Require Import Base.Val Base.Bytes Base.Bits Base.Tys Gen.Tables Gen.SrcC15 Model.Codec Model.Pdo Model.PdoLink
  Proofs.Codec_proofs Proofs.Pdo_proofs Proofs.PdoLink_proofs Proofs.Src_eq_c15.
Import ListNotations.
Open Scope Z_scope.

Theorem C15_wf_invariant : forall ops w, wf_world w -> wf_world (fst (run_steps w ops)).
Proof. exact wf_preserved. Qed.

(* producer writes a mapped variable and transmits; a consumer map with the same layout that is
   subscribed to the COB-ID reads the same value and carries the frame's timestamp *)
Theorem C15_end_to_end : forall w kp kc var v ts mp mc e off ft,
  wf_world w -> kp <> kc ->
  nth_error (w_maps w) kp = Some mp -> nth_error (w_maps w) kc = Some mc ->
  m_layout mc = m_layout mp ->
  nth_error (m_layout mp) var = Some e -> nth_error (offsets (m_layout mp)) var = Some off ->
  entry_is (e_dt e) (e_len e) ft -> fits ft v ->
  bytes_ok (m_data mp) -> 0 <= off -> off + e_len e <= 8 * zlen (m_data mp) ->
  has_sub (w_subs w) (m_cob mp) kc = true -> accepts mc (m_cob mp) = true ->
  let '(w1, r1) := step w (LWrite kp var (write_value ft v)) in
  let '(w2, r2) := step w1 (LTransmit kp ts) in
  let '(w3, r3) := step w2 (LRead kc var) in
  r1 = VNone /\ r2 = VNone /\
  r3 = pyval_val (field_value ft (e_len e) (v mod 2 ^ e_len e)) /\
  exists mc', nth_error (w_maps w3) kc = Some mc' /\ m_ts mc' = Some ts /\ m_received mc' = true.
Proof. exact pdo_end_to_end. Qed.

(* a received frame updates exactly the maps subscribed to (and configured for) its COB-ID *)
Theorem C15_reception_updates_exactly_subscribers : forall w c d ts j m, wf_world w ->
  nth_error (w_maps w) j = Some m ->
  let w' := arrive w c d ts in
  (has_sub (w_subs w) c j && accepts m c = false -> nth_error (w_maps w') j = Some m) /\
  (has_sub (w_subs w) c j && accepts m c = true ->
     exists m', nth_error (w_maps w') j = Some m' /\ m_data m' = d /\ m_ts m' = Some ts /\
                m_received m' = true /\ m_layout m' = m_layout m /\ m_cob m' = m_cob m).
Proof. exact reception_updates_exactly_subscribers. Qed.

(* ... and invokes each callback of each updated map once, in order *)
Theorem C15_reception_callbacks : forall w c d ts, wf_world w ->
  w_cblog (arrive w c d ts) = w_cblog w ++ flat_map (sub_log (w_maps w) c d ts) (w_subs w).
Proof. exact reception_callbacks. Qed.

Theorem C15_transmit_sends : forall w k ts m, nth_error (w_maps w) k = Some m -> wf_world w ->
  w_sent (fst (step w (LTransmit k ts))) = w_sent w ++ [(m_cob m, m_data m, false)].
Proof. exact transmit_sends. Qed.

Theorem C15_rtr_rule : forall w k m, nth_error (w_maps w) k = Some m ->
  w_sent (fst (step w (LRtr k))) =
  if m_enabled m && m_rtr m then w_sent w ++ [(m_cob m, [], true)] else w_sent w.
Proof. exact rtr_rule. Qed.

(* Tie to the source text: PdoMap.on_message and remote_request as translated from the CURRENT source by
   tools/py2coq.py (Gen/SrcC15.v, regenerated on every run) take a frame exactly when the model does, update
   timestamp and period as the model does, and send the remote frame under the model's condition. *)
Theorem C15_source_on_message_is_model : forall m can_id data ts dts dper,
  let r := src_pdo_on_message (m_cob m) (m_task m) (match m_ts m with Some _ => true | None => false end)
             (match m_ts m with Some t => t | None => dts end)
             (match m_period m with Some p => p | None => dper end) can_id ts false in
  let m' := fst (on_message m can_id data ts) in
  fst (fst r) = accepts m can_id /\
  (accepts m can_id = true ->
     m_ts m' = Some (snd r) /\
     m_period m' = match m_ts m with Some _ => Some (snd (fst r)) | None => m_period m end) /\
  (accepts m can_id = false -> m' = m).
Proof. exact src_pdo_on_message_eq. Qed.

Theorem C15_source_remote_request_is_model : forall w k m, nth_error (w_maps w) k = Some m ->
  w_sent (fst (step w (LRtr k))) =
  if src_pdo_remote_request_sends (m_enabled m) (m_rtr m) false then w_sent w ++ [(m_cob m, [], true)] else w_sent w.
Proof. exact src_pdo_remote_request_eq. Qed.

Theorem C15_source_subscribe_is_model : forall w k m, nth_error (w_maps w) k = Some m ->
  fst (step w (LSubscribe k)) =
  if src_pdo_subscribe_calls (m_enabled m) false && src_net_subscribe_adds (has_sub (w_subs w) (m_cob m) k) false
  then {| w_maps := w_maps w; w_subs := w_subs w ++ [(m_cob m, k)]; w_sent := w_sent w; w_cblog := w_cblog w |}
  else w.
Proof. exact src_pdo_subscribe_eq. Qed.

Theorem C15_source_transmit_is_model : forall w k m ts, nth_error (w_maps w) k = Some m ->
  w_sent (fst (step w (LTransmit k ts))) =
  if src_pdo_transmit_sends false then w_sent w ++ [(m_cob m, m_data m, false)] else w_sent w.
Proof. exact src_pdo_transmit_eq. Qed.

(* non-vacuity: producer map 0 and consumer map 1, layout [BOOLEAN:1, INTEGER16:16], consumer
   subscribed with two callbacks; the hypotheses of C15_end_to_end hold and the run gives -300 *)
Example C15_nv :
  let lay := [{| e_dt := 1; e_len := 1 |}; {| e_dt := 3; e_len := 16 |}] in
  let w0 := {| w_maps := [fresh_map 389 true true lay; fresh_map 389 true true lay];
               w_subs := []; w_sent := []; w_cblog := [] |} in
  let w := fst (run_steps w0 [LAddCb 1 7; LAddCb 1 8; LSubscribe 1]) in
  wf_world w /\ has_sub (w_subs w) 389 1 = true /\
  (exists mc, nth_error (w_maps w) 1 = Some mc /\ accepts mc 389 = true) /\
  entry_is 3 16 (FInt true 16) /\ fits (FInt true 16) (-300) /\
  snd (run_steps w [LWrite 0 1 (PInt (-300)); LTransmit 0 1234; LRead 1 1; LState 1]) =
    [VNone; VNone; VZ (-300); VL [VBool true; VZ 1234; VNone; VB [168; 253; 1]]] /\
  w_cblog (fst (run_steps w [LWrite 0 1 (PInt (-300)); LTransmit 0 1234])) = [(1%nat, 7); (1%nat, 8)].
Proof.
  cbn zeta. split; [|split; [|split; [|split; [|split; [|split]]]]].
  - apply wf_preserved. constructor.
  - vm_compute. reflexivity.
  - eexists. split; vm_compute; reflexivity.
  - exists (PStruct true 16). vm_compute. auto.
  - vm_compute. reflexivity.
  - vm_compute. reflexivity.
  - vm_compute. reflexivity.
Qed.

Print Assumptions C15_wf_invariant.
Print Assumptions C15_end_to_end.
Print Assumptions C15_reception_updates_exactly_subscribers.
Print Assumptions C15_reception_callbacks.
Print Assumptions C15_transmit_sends.
Print Assumptions C15_rtr_rule.
Print Assumptions C15_source_on_message_is_model.
Print Assumptions C15_source_remote_request_is_model.
Print Assumptions C15_source_subscribe_is_model.
Print Assumptions C15_source_transmit_is_model.
