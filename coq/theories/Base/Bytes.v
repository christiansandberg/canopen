(* Byte strings as [list Z] (Python int = Z): little-endian encoding and decoding with their bit-level reading, and
   sign extension.  Before them, the list facts the proofs share: [zlen], firstn / skipn of an append, membership
   in [zmem] / [zassoc], [list_Z_eqb] as equality, and a boolean test swept over a range ([range_forall]). *)
From Coq Require Import ZArith List Lia ZifyBool.
From CV Require Import Base.Val Base.Bits Base.Tys.
Import ListNotations.
Open Scope Z_scope.
(* ZifyBool sets this hook to [elim_bool_cstr], a case split on the boolean constraints that every later [lia]
   would run after [zify]; no proof of the development needs it *)
Ltac Zify.zify_post_hook ::= idtac.

Definition byte_ok (b : Z) : Prop := 0 <= b < 256.
Definition bytes_ok (l : list Z) : Prop := Forall byte_ok l.
Definition byte_okb (b : Z) : bool := (0 <=? b) && (b <? 256).
Definition bytes_okb (l : list Z) : bool := forallb byte_okb l.

Fixpoint le_encode (n : nat) (v : Z) : list Z :=
  match n with
  | O => []
  | S n' => (v mod 256) :: le_encode n' (v / 256)
  end.

Fixpoint le_decode (l : list Z) : Z :=
  match l with
  | [] => 0
  | b :: r => b + 256 * le_decode r
  end.

(* two's-complement reinterpretation of an unsigned w-bit number *)
Definition sext (w u : Z) : Z := if u <? 2 ^ (w - 1) then u else u - 2 ^ w.

Definition zlen {A} (l : list A) : Z := Z.of_nat (length l).

Lemma zlen_app {A} (a b : list A) : zlen (a ++ b) = zlen a + zlen b.
Proof. unfold zlen. rewrite app_length. lia. Qed.

Lemma zlen_nonneg {A} (l : list A) : 0 <= zlen l.
Proof. unfold zlen. lia. Qed.

Lemma zlen_cons {A} (a : A) l : zlen (a :: l) = 1 + zlen l.
Proof. unfold zlen. cbn [length]. lia. Qed.

Lemma zlen_repeat {A} (x : A) k : zlen (repeat x k) = Z.of_nat k.
Proof. unfold zlen. now rewrite repeat_length. Qed.

Lemma zlen_firstn {A} n (a : list A) : zlen (firstn n a) = Z.min (Z.of_nat n) (zlen a).
Proof. unfold zlen. rewrite firstn_length. lia. Qed.

Lemma zlen_skipn {A} n (a : list A) : zlen (skipn n a) = zlen a - Z.min (Z.of_nat n) (zlen a).
Proof. unfold zlen. rewrite skipn_length. lia. Qed.

Lemma zlen_nil_inv {A} (a : list A) : zlen a = 0 -> a = [].
Proof. destruct a; [reflexivity|]. unfold zlen. cbn [length]. lia. Qed.

Lemma firstn_app_exact {A} (a b : list A) n : length a = n -> firstn n (a ++ b) = a.
Proof. intros <-. rewrite firstn_app, Nat.sub_diag, firstn_all. apply app_nil_r. Qed.

Lemma skipn_app_exact {A} (a b : list A) n : length a = n -> skipn n (a ++ b) = b.
Proof. intros <-. rewrite skipn_app, skipn_all, Nat.sub_diag. reflexivity. Qed.

Lemma Forall_firstn_skipn {A} (P : A -> Prop) n l : Forall P l -> Forall P (firstn n l) /\ Forall P (skipn n l).
Proof. intros H. apply Forall_app. now rewrite firstn_skipn. Qed.

Lemma NoDup_snoc {A} (l : list A) x : NoDup l -> ~ In x l -> NoDup (l ++ [x]).
Proof.
  induction 1 as [|y r Hy Hr IH]; intros Hx; cbn.
  - constructor; [intros []|constructor].
  - constructor.
    + rewrite in_app_iff. intros [H|[H|[]]]; [contradiction|]. subst. apply Hx. now left.
    + apply IH. intros H. apply Hx. now right.
Qed.

Lemma zmem_In k l : zmem k l = true <-> In k l.
Proof.
  induction l as [|x l IH]; cbn [zmem In]; [split; [discriminate|tauto]|].
  destruct (Z.eqb_spec k x) as [->|N]; [tauto|]. rewrite IH. split; [auto|]. intros [E|H]; [congruence|exact H].
Qed.

Lemma iff_false (b : bool) (P : Prop) : (b = true <-> P) -> (b = false <-> ~ P).
Proof. intros <-. destruct b; split; congruence. Qed.

Lemma zmem_false k l : zmem k l = false <-> ~ In k l.
Proof. exact (iff_false _ _ (zmem_In k l)). Qed.

Lemma zassoc_In {A} t (p : A) l : zassoc t l = Some p -> In (t, p) l.
Proof.
  induction l as [|[k a] r IH]; cbn; [discriminate|].
  destruct (t =? k) eqn:E; intros H.
  - injection H as ->. left. f_equal. lia.
  - right. auto.
Qed.

(* a boolean test evaluated on lo .. lo+n-1 holds of every integer in that range *)
Lemma range_forall (p : Z -> bool) (lo : Z) (n : nat) :
  forallb p (map (fun i => lo + Z.of_nat i) (seq 0 n)) = true ->
  forall x, lo <= x < lo + Z.of_nat n -> p x = true.
Proof.
  intros H x Hx. rewrite forallb_forall in H. apply H.
  apply in_map_iff. exists (Z.to_nat (x - lo)). split; [lia|]. apply in_seq. lia.
Qed.

Lemma list_Z_eqb_refl a : list_Z_eqb a a = true.
Proof. induction a as [|x a IH]; cbn; [reflexivity|]. rewrite Z.eqb_refl. exact IH. Qed.

Lemma list_Z_eqb_eq a b : list_Z_eqb a b = true <-> a = b.
Proof.
  split; [|intros ->; apply list_Z_eqb_refl].
  revert b; induction a as [|x a IH]; intros [|y b]; cbn; try discriminate; [reflexivity|].
  intros H. apply andb_prop in H as [H1 H2]. apply Z.eqb_eq in H1. f_equal; auto.
Qed.

Lemma list_Z_eqb_neq a b : list_Z_eqb a b = false <-> a <> b.
Proof. exact (iff_false _ _ (list_Z_eqb_eq a b)). Qed.

Lemma bytes_okb_spec l : bytes_okb l = true <-> bytes_ok l.
Proof.
  unfold bytes_okb, bytes_ok. rewrite forallb_forall, Forall_forall.
  unfold byte_okb, byte_ok. split; intros H x Hx; specialize (H x Hx); lia.
Qed.

Lemma le_encode_length n v : length (le_encode n v) = n.
Proof. revert v; induction n as [|n IH]; intros v; cbn; [reflexivity|now rewrite IH]. Qed.

Lemma zlen_le_encode n v : zlen (le_encode n v) = Z.of_nat n.
Proof. unfold zlen. now rewrite le_encode_length. Qed.

Lemma le_encode_ok n v : bytes_ok (le_encode n v).
Proof.
  revert v; induction n as [|n IH]; intros v; cbn; constructor.
  - apply Z.mod_pos_bound. reflexivity.
  - apply IH.
Qed.

Lemma pow8S n : 2 ^ (8 * Z.of_nat (S n)) = 256 * 2 ^ (8 * Z.of_nat n).
Proof.
  replace (8 * Z.of_nat (S n)) with (8 + 8 * Z.of_nat n) by lia.
  rewrite Z.pow_add_r by lia. reflexivity.
Qed.

Lemma le_decode_encode n v : le_decode (le_encode n v) = v mod 2 ^ (8 * Z.of_nat n).
Proof.
  revert v; induction n as [|n IH]; intros v.
  - cbn. now rewrite Z.mod_1_r.
  - cbn [le_encode le_decode]. rewrite IH, pow8S.
    assert (0 < 2 ^ (8 * Z.of_nat n)) by (apply Z.pow_pos_nonneg; lia).
    rewrite Z.rem_mul_r by lia. reflexivity.
Qed.

Lemma le_decode_encode_small n v : 0 <= v < 2 ^ (8 * Z.of_nat n) -> le_decode (le_encode n v) = v.
Proof. intros H. rewrite le_decode_encode. now apply Z.mod_small. Qed.

Lemma le_decode_range l : bytes_ok l -> 0 <= le_decode l < 2 ^ (8 * zlen l).
Proof.
  unfold zlen. induction 1 as [|b r Hb Hr IH].
  - cbn. lia.
  - cbn [le_decode length]. rewrite pow8S. unfold byte_ok in Hb. lia.
Qed.

Lemma le_encode_decode l : bytes_ok l -> le_encode (length l) (le_decode l) = l.
Proof.
  induction 1 as [|b r Hb Hr IH]; [reflexivity|].
  cbn [le_decode length le_encode]. unfold byte_ok in Hb.
  remember (le_decode r) as x eqn:Ex.
  assert (H1 : (b + 256 * x) mod 256 = b) by (Z.div_mod_to_equations; lia).
  assert (H2 : (b + 256 * x) / 256 = x) by (Z.div_mod_to_equations; lia).
  rewrite H1, H2, IH. reflexivity.
Qed.

Lemma le_encode_mod n v : le_encode n (v mod 2 ^ (8 * Z.of_nat n)) = le_encode n v.
Proof.
  rewrite <- le_decode_encode.
  rewrite <- (le_encode_length n v) at 1.
  apply le_encode_decode, le_encode_ok.
Qed.

Lemma le_encode_unique n v l : bytes_ok l -> zlen l = n -> v mod 2 ^ (8 * n) = le_decode l ->
  le_encode (Z.to_nat n) v = l.
Proof. intros Hl <- E. unfold zlen in *. rewrite Nat2Z.id, <- le_encode_mod, E. now apply le_encode_decode. Qed.

Lemma le_decode_inj a b : bytes_ok a -> bytes_ok b -> length a = length b ->
  le_decode a = le_decode b -> a = b.
Proof.
  intros Ha Hb Hl He.
  rewrite <- (le_encode_decode a Ha), <- (le_encode_decode b Hb), Hl, He. reflexivity.
Qed.

Lemma le_decode_app a b : le_decode (a ++ b) = le_decode a + 2 ^ (8 * zlen a) * le_decode b.
Proof.
  unfold zlen. induction a as [|x a IH].
  - cbn [app le_decode length]. change (2 ^ (8 * Z.of_nat 0)) with 1. ring.
  - cbn [app le_decode length]. rewrite IH, pow8S. ring.
Qed.

(* bit-level characterisation: bit i of the number is bit (i mod 8) of byte (i / 8) *)
Lemma le_decode_testbit l i : bytes_ok l -> 0 <= i ->
  Z.testbit (le_decode l) i = Z.testbit (nth (Z.to_nat (i / 8)) l 0) (i mod 8).
Proof.
  intros Hl. revert i. induction Hl as [|b r Hb Hr IH]; intros i Hi.
  - cbn. rewrite Z.testbit_0_l. destruct (Z.to_nat (i / 8)); now rewrite Z.testbit_0_l.
  - cbn [le_decode]. rewrite (testbit_add_shift b _ 8) by exact Hb.
    destruct (i <? 8) eqn:E.
    + rewrite Z.div_small, Z.mod_small by lia. reflexivity.
    + rewrite IH by lia. replace (Z.to_nat (i / 8)) with (S (Z.to_nat ((i - 8) / 8))) by (Z.div_mod_to_equations; lia).
      cbn [nth]. f_equal. Z.div_mod_to_equations; lia.
Qed.

(* the bits of a ++ b are those of a, then those of b *)
Lemma le_decode_app_testbit a b i : bytes_ok a ->
  Z.testbit (le_decode (a ++ b)) i =
  if i <? 8 * zlen a then Z.testbit (le_decode a) i else Z.testbit (le_decode b) (i - 8 * zlen a).
Proof. intros Ha. rewrite le_decode_app. apply testbit_add_shift. now apply le_decode_range. Qed.

(* dropping n bytes shifts the number down by 8n bits, keeping n bytes keeps its low 8n bits *)
Lemma le_decode_skipn_testbit n l i : bytes_ok l -> (n <= length l)%nat -> 0 <= i ->
  Z.testbit (le_decode (skipn n l)) i = Z.testbit (le_decode l) (i + 8 * Z.of_nat n).
Proof.
  intros Hl Hn Hi. rewrite <- (firstn_skipn n l) at 2.
  rewrite le_decode_app_testbit by (try apply Forall_firstn_skipn; auto; lia).
  unfold zlen. rewrite firstn_length_le by exact Hn.
  replace (i + 8 * Z.of_nat n <? 8 * Z.of_nat n) with false by lia. f_equal. lia.
Qed.

Lemma le_decode_firstn_testbit n l i : bytes_ok l -> (n <= length l)%nat ->
  Z.testbit (le_decode (firstn n l)) i = if i <? 8 * Z.of_nat n then Z.testbit (le_decode l) i else false.
Proof.
  intros Hl Hn. pose proof (proj1 (Forall_firstn_skipn _ n l Hl)) as Hf.
  rewrite <- (firstn_skipn n l) at 2. rewrite le_decode_app_testbit by (auto; lia).
  pose proof (le_decode_range _ Hf) as Hr. unfold zlen in *. rewrite firstn_length_le in * by exact Hn.
  destruct (i <? 8 * Z.of_nat n) eqn:E; [reflexivity|]. apply (testbit_small _ _ _ Hr). lia.
Qed.

Lemma sext_range w u : 0 < w -> 0 <= u < 2 ^ w -> - 2 ^ (w - 1) <= sext w u < 2 ^ (w - 1).
Proof. intros Hw Hu. unfold sext. rewrite (pow_split w Hw) in *. destruct (u <? 2 ^ (w - 1)) eqn:C; lia. Qed.

Lemma mod_sext w u : 0 <= u < 2 ^ w -> (sext w u) mod 2 ^ w = u.
Proof.
  intros Hu. unfold sext. destruct (u <? 2 ^ (w - 1)).
  - apply Z.mod_small; lia.
  - replace (u - 2 ^ w) with (u + (-1) * 2 ^ w) by ring. rewrite Z.mod_add by lia. apply Z.mod_small; lia.
Qed.

Lemma sext_mod w v : 0 < w -> - 2 ^ (w - 1) <= v < 2 ^ (w - 1) -> sext w (v mod 2 ^ w) = v.
Proof.
  intros Hw Hv. pose proof (pow_split w Hw) as E.
  destruct (0 <=? v) eqn:S.
  - rewrite Z.mod_small by lia. unfold sext. destruct (v <? 2 ^ (w - 1)) eqn:C; lia.
  - rewrite <- (Z.mod_add v 1), Z.mul_1_l, Z.mod_small by lia. unfold sext.
    destruct (v + 2 ^ w <? 2 ^ (w - 1)) eqn:C; lia.
Qed.

Lemma sext_testbit w u : 0 < w -> 0 <= u < 2 ^ w -> sext w u = if Z.testbit u (w - 1) then u - 2 ^ w else u.
Proof.
  intros Hw Hu. rewrite testbit_top by assumption. unfold sext.
  destruct (2 ^ (w - 1) <=? u) eqn:E; destruct (u <? 2 ^ (w - 1)) eqn:F; lia.
Qed.

(* sign extension to a wider format: the bits above w all copy the sign bit *)
Lemma sext_widen w W u : 0 < w <= W ->
  sext W (if u <? 2 ^ (w - 1) then u else u + (2 ^ W - 2 ^ w)) = sext w u.
Proof.
  intros Hw. assert (2 ^ (w - 1) <= 2 ^ (W - 1)) by (apply Z.pow_le_mono_r; lia).
  unfold sext. rewrite (pow_split w), (pow_split W) in * by lia.
  destruct (u <? 2 ^ (w - 1)) eqn:E.
  - destruct (u <? 2 ^ (W - 1)) eqn:F; lia.
  - destruct (u + (2 * 2 ^ (W - 1) - 2 * 2 ^ (w - 1)) <? 2 ^ (W - 1)) eqn:F; lia.
Qed.
