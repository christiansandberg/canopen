(* Source tie (DESIGN.md 4.3): BaseNode402.state as translated from the CURRENT source text (Gen/SrcC19.v) equals the
   model function of Model/P402.v (C19). *)
From Coq Require Import ZArith List.
From CV Require Import Gen.SrcC19 Gen.P402Tables Model.P402.
Import ListNotations.
Open Scope Z_scope.

Lemma src_state_decode_in tbl sw : src_p402_state tbl sw = decode_in tbl sw.
Proof.
  unfold src_p402_state. cbv zeta.
  induction tbl as [|[name [m v]] r IH]; cbn [find decode_in]; [reflexivity|].
  destruct (Z.land sw m =? v); [reflexivity|exact IH].
Qed.

Theorem src_p402_state_eq sw : src_p402_state SW_MASK sw = decode_state sw.
Proof. apply src_state_decode_in. Qed.
