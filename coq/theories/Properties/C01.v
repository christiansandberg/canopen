(* C01 - SDO client transfers exactly the caller's bytes in conformant CiA 301 frames
   (expedited + segmented transfer).
   Statements only: each theorem is [exact] of a lemma of Proofs/{SdoClient_proofs.v, Src_eq_c01.v};
   the examples are concrete instances.
   Model: Model/SdoClient.v (request_response, WritableStream, ReadableStream, upload, download,
   the file-like interface driven by a write schedule / the buffer sizes of the raw reads),
   reference peer: Model/RefServer.v (CiA 301 server that flags every illegal request in s_viol),
   constants: Gen/SdoTables.v, STRUCT_TYPES: Gen/Tables.v, regenerated from /repo on every run.

   Reading guide.  [w : cworld] is client + medium + reference server; [n_fault (w_s w) = None] = no
   disturbance pending; [net_wf] is an invariant of every reachable state (the multiplexer of the
   server's running transfer has 3 bytes), it holds initially (C01_nv_init) and is kept by every
   transfer.  The response queue [w_q w] and the server's transfer state [s_x] are ARBITRARY in every
   statement: left-overs of earlier transfers do not matter.  "Every request frame legal" is
   [s_viol] unchanged: the reference server records a violation code for a request that is not 8
   bytes, has a wrong specifier / reserved bit, a toggle bit not alternating from 0, n <> 7 - bytes,
   non-zero padding, an announced size different from the bytes sent, or a segment without transfer. *)
From Coq Require Import ZArith List Bool Lia.
From CV Require Import Base.Val Base.Bytes Base.Tys Gen.Tables Model.RefServer Model.SdoClient Proofs.SdoClient_proofs Gen.SrcC01 Proofs.Src_eq_c01.
Import ListNotations.
Open Scope Z_scope.

(* Every multiplexer, every payload, size absent or |data|, forced segmentation or not, every valid
   write schedule (what BufferedWriter / a write-all loop offers to the raw stream): the transfer
   completes, the server's store holds exactly the payload under that multiplexer and nothing else
   changed, no request was illegal, the server's transfer is closed.
   Hypotheses forced by the code: payload below 2^32 bytes (struct "<L"); an expedited raw stream
   (1 <= size <= 4, not forced) must be offered its `size` bytes at once ([valid_sched true]),
   a smaller offer makes write() return 0 for ever. *)
Theorem C01_download_delivers : forall (w : cworld) idx sub data size force sched,
  net_wf (w_s w) -> n_fault (w_s w) = None ->
  mux_ok idx sub -> zlen data < 2 ^ 32 -> (size = None \/ size = Some (zlen data)) ->
  valid_sched (expedited size force) sched (zlen data) ->
  exists w', with_write net_step w idx sub size force data sched = (w', Ok tt) /\
    store_get idx sub (n_srv (w_s w')) = Some data /\
    (forall i j, mux_key i j <> mux_key idx sub -> store_get i j (n_srv (w_s w')) = store_get i j (n_srv (w_s w))) /\
    s_viol (n_srv (w_s w')) = s_viol (n_srv (w_s w)) /\
    s_x (n_srv (w_s w')) = XNone /\ net_wf (w_s w') /\ n_fault (w_s w') = None.
Proof. exact download_delivers. Qed.

(* SdoClient.download(index, subindex, data, force_segment) itself *)
Theorem C01_download_api : forall (w : cworld) idx sub data force sched,
  net_wf (w_s w) -> n_fault (w_s w) = None -> mux_ok idx sub -> zlen data < 2 ^ 32 ->
  valid_sched (expedited (Some (zlen data)) force) sched (zlen data) ->
  exists w', sdo_download net_step w idx sub data force sched = (w', Ok tt) /\
    store_get idx sub (n_srv (w_s w')) = Some data /\
    s_viol (n_srv (w_s w')) = s_viol (n_srv (w_s w)).
Proof. exact download_api. Qed.

(* SdoClient.upload: every held value, every response style of the server (size indicated or not,
   expedited with or without size, any sequence of segment lengths 0..7 including empty non-final
   segments, last flag on a separate empty segment): the result is [expected_upload], no request
   illegal.  FUEL bounds the model's loops (3000 segments); the two fuel hypotheses say the value
   and the style's list of segment lengths fit into it. *)
Theorem C01_upload_returns : forall (w : cworld) idx sub odt v,
  net_wf (w_s w) -> n_fault (w_s w) = None -> mux_ok idx sub ->
  store_get idx sub (n_srv (w_s w)) = Some v -> zlen v < 2 ^ 32 ->
  (length (st_segs (s_style (n_srv (w_s w)))) < FUEL)%nat -> (length v + 2 <= FUEL)%nat ->
  exists w', sdo_upload net_step FUEL w idx sub odt = (w', Ok (expected_upload (s_style (n_srv (w_s w))) odt v)) /\
    s_store (n_srv (w_s w')) = s_store (n_srv (w_s w)) /\ s_viol (n_srv (w_s w')) = s_viol (n_srv (w_s w)) /\
    s_x (n_srv (w_s w')) = XNone /\ net_wf (w_s w') /\ n_fault (w_s w') = None.
Proof. exact upload_returns. Qed.

(* ... where [expected_upload] is: for an entry the dictionary declares with a fixed-size numeric type
   (a key of STRUCT_TYPES, declared size k bytes) exactly the k leading bytes of the value ... *)
Theorem C01_upload_numeric : forall st t k v, od_var_size t = Some k -> 0 <= k <= zlen v ->
  expected_upload st (Some t) v = firstn (Z.to_nat k) v.
Proof. exact expected_upload_numeric. Qed.

(* ... and otherwise (no dictionary entry, string / domain / TIME_OF_DAY ... types) exactly what the
   server sent: the value, or the four data bytes of an expedited response without size indication *)
Theorem C01_upload_plain : forall st odt v,
  (odt = None \/ exists t, odt = Some t /\ od_var_size t = None) -> expected_upload st odt v = wire_value st v.
Proof. exact expected_upload_plain. Qed.

(* ObjectDictionary.get_variable as upload uses it: every element 1..255 of an ARRAY has the declared type of
   the array's elements, whether the dictionary lists it or synthesises it from the member at sub-index 1 *)
Theorem C01_array_member_declared : forall ms t sub,
  zassoc 1 ms = Some (Some t) -> 0 < sub < 256 -> zassoc sub ms = None ->
  od_get_type (OArrT ms) sub = Some t.
Proof. exact array_member_declared. Qed.

(* open(index, subindex, "rb", buffering=0).read() *)
Theorem C01_raw_read_returns : forall (w : cworld) idx sub v,
  net_wf (w_s w) -> n_fault (w_s w) = None -> mux_ok idx sub ->
  store_get idx sub (n_srv (w_s w)) = Some v -> zlen v < 2 ^ 32 ->
  (length (st_segs (s_style (n_srv (w_s w)))) < FUEL)%nat -> (length v + 2 <= FUEL)%nat ->
  exists w' size, read_whole net_step FUEL w idx sub = (w', size, Ok (wire_value (s_style (n_srv (w_s w))) v)) /\
    s_viol (n_srv (w_s w')) = s_viol (n_srv (w_s w)) /\ n_fault (w_s w') = None.
Proof. exact raw_read_returns. Qed.

(* Buffered reading: ANY sequence of raw reads (readinto with a buffer of any size >= 0, or read(n)
   for a negative entry) hands out a prefix of the value, never loses or reorders a byte, and has
   handed out everything once enough non-empty reads were made. *)
Theorem C01_buffered_read_returns : forall (w : cworld) idx sub v caps,
  net_wf (w_s w) -> n_fault (w_s w) = None -> mux_ok idx sub ->
  store_get idx sub (n_srv (w_s w)) = Some v -> zlen v < 2 ^ 32 ->
  (length (st_segs (s_style (n_srv (w_s w)))) < FUEL)%nat ->
  exists w' out rest, open_read net_step FUEL caps w idx sub = (w', Ok out) /\
    wire_value (s_style (n_srv (w_s w))) v = out ++ rest /\
    (Nat.min (length (wire_value (s_style (n_srv (w_s w))) v)) (active_caps caps) <= length out)%nat /\
    s_viol (n_srv (w_s w')) = s_viol (n_srv (w_s w)) /\ n_fault (w_s w') = None.
Proof. exact buffered_read_returns. Qed.

(* Any list of transfers on one client (downloads, uploads in every mode, changes of the object by
   the server's application, stale frames left in the response queue between them, a different
   server style for each) behaves as the list of single transfers: the results and the final store
   are those of [spec_seq], which speaks about the store only; no request was illegal. *)
Theorem C01_back_to_back : forall full store ts, seq_ok store ts ->
  exists w' os, run_tcases full (init_world store) ts = (w', os) /\
    map obs_result os = snd (spec_seq store ts) /\
    s_store (n_srv (w_s w')) = fst (spec_seq store ts) /\ s_viol (n_srv (w_s w')) = [].
Proof. exact back_to_back. Qed.

Example C01_nv_init : net_wf (w_s (init_world [(8192, [1; 2; 3])])) /\ n_fault (w_s (init_world [])) = None.
Proof. vm_compute. auto. Qed.

(* a 20-byte segmented download of unknown size offered as 10, 3, 7, 3 bytes; a 3-byte expedited one *)
Example C01_nv_download :
  mux_ok 8192 1 /\ valid_sched (expedited None false) [10; 3; 7; 3] 20 /\
  valid_sched (expedited (Some 3) false) [3] 3 /\ expedited (Some 3) false = true /\
  (let data := [1; 2; 3; 4; 5; 6; 7; 8; 9; 10; 11; 12; 13; 14; 15; 16; 17; 18; 19; 20] in
   let '(w', r) := with_write net_step (init_world []) 8192 1 None false data [10; 3; 7; 3] in
   r = Ok tt /\ store_get 8192 1 (n_srv (w_s w')) = Some data /\ length (w_log w') = 12%nat).
Proof. vm_compute. repeat split; try reflexivity; discriminate. Qed.

(* an UNSIGNED16 entry whose server answers with four bytes and no size; a 9-byte value sent in
   segments of 3, 0, 7 bytes *)
Example C01_nv_upload :
  od_var_size 6 = Some 2 /\ od_var_size 9 = None /\
  (let sty := {| st_size_ind := false; st_expedite := true; st_exp_size := false; st_lazy_end := true; st_segs := [3; 0; 7] |} in
   expected_upload sty (Some 6) [52; 18; 0; 0] = [52; 18] /\
   let w := init_world [(8192, [1; 2; 3; 4; 5; 6; 7; 8; 9])] in
   let w := {| w_s := with_srv (set_style sty) (w_s w); w_q := [[96; 0; 0; 0; 0; 0; 0; 0]]; w_log := [] |} in
   Nat.ltb (length (st_segs (s_style (n_srv (w_s w))))) FUEL = true /\
   snd (sdo_upload net_step FUEL w 8192 0 None) = Ok [1; 2; 3; 4; 5; 6; 7; 8; 9] /\
   snd (open_read net_step FUEL [7; 2; 1; -1; 4; 4] w 8192 0) = Ok [1; 2; 3; 4; 5; 6; 7; 8; 9]).
Proof. vm_compute. repeat split; reflexivity. Qed.

Example C01_nv_back_to_back :
  let sty := {| st_size_ind := true; st_expedite := true; st_exp_size := true; st_lazy_end := false; st_segs := [2; 0] |} in
  let ts := [ {| t_style := sty; t_fault := None; t_pre := []; t_x := TDl 8192 5 [9; 8; 7; 6; 5; 4; 3; 2; 1] (Some 9) false [9; 2] |};
              {| t_style := sty; t_fault := None; t_pre := [[0; 1; 2; 3; 4; 5; 6; 7]]; t_x := TUl 8192 5 (OArrT [(0, Some 5); (1, Some 7)]) UUpload |};
              {| t_style := sty; t_fault := None; t_pre := []; t_x := TUl 4096 0 ONone URaw |} ] in
  seq_ok [(4096, [1; 2])] ts /\
  snd (spec_seq [(4096, [1; 2])] ts) = [VNone; VB [9; 8; 7; 6]; VB [1; 2]].
Proof.
  cbv zeta. split; [|vm_compute; reflexivity].
  cbn [seq_ok xfer_ok spec_xfer t_fault t_style t_x fst snd].
  repeat match goal with |- _ /\ _ => split end; try reflexivity; try exact I;
    try (unfold mux_ok; lia); try (vm_compute; reflexivity).
  - right. reflexivity.
  - vm_compute. repeat split; discriminate.
  - replace (zassoc (mux_key 8192 5) _) with (Some [9; 8; 7; 6; 5; 4; 3; 2; 1]) by reflexivity.
    repeat split; try exact I; try (unfold FUEL; cbn [length st_segs]; lia); vm_compute; reflexivity.
  - replace (zassoc (mux_key 4096 0) _) with (Some [1; 2]) by reflexivity.
    repeat split; try exact I; try (unfold FUEL; cbn [length st_segs]; lia); vm_compute; reflexivity.
Qed.

(* Source tie (DESIGN.md 4.3): source text -> model.  Gen/SrcC01.v is regenerated from the text of canopen/sdo/client.py on every run
   (tools/tables/src_c01.py): WritableStream.__init__ / write / close and ReadableStream.__init__ / read as state
   skeletons (which branch, byte 0 of the request, payload bytes copied, _toggle / _done / _error / pos / size
   afterwards, which exception).  The *_from_src functions (Proofs/Src_eq_c01.v) are the model functions rebuilt around
   those skeletons: the only decisions left outside the translated text are struct packing, the request/response
   exchange and slicing.  The model the theorems above speak about IS what the current source text says. *)
Theorem C01_src_ws_init : forall (S : Type) (peer : S -> frame -> S * list frame) (w : world) idx sub size force,
  ws_init peer w idx sub size force = ws_init_from_src peer w idx sub size force.
Proof. exact @src_ws_init_eq. Qed.

Theorem C01_src_ws_write : forall (S : Type) (peer : S -> frame -> S * list frame) (w : world) st b,
  ws_write peer w st b = ws_write_from_src peer w st b.
Proof. exact @src_ws_write_eq. Qed.

Theorem C01_src_ws_close : forall (S : Type) (peer : S -> frame -> S * list frame) (w : world) st,
  ws_close peer w st = ws_close_from_src peer w st.
Proof. exact @src_ws_close_eq. Qed.

Theorem C01_src_rs_init : forall (S : Type) (peer : S -> frame -> S * list frame) (w : world) idx sub,
  rs_init peer w idx sub = rs_init_from_src peer w idx sub.
Proof. exact @src_rs_init_eq. Qed.

Theorem C01_src_rs_read : forall (S : Type) (peer : S -> frame -> S * list frame) (f : nat) (w : world) st size,
  0 <= size ->
  rs_read peer (Datatypes.S f) w st = rs_read_from_src peer (rs_read peer f) w st size.
Proof. exact @src_rs_read_eq. Qed.

(* readinto(b) with a buffer of cap bytes: read(7) only when nothing is pending, min(cap, pending) bytes handed out,
   the rest kept *)
Theorem C01_src_rs_readinto : forall (S : Type) (peer : S -> frame -> S * list (frame)) rf cap (w : world) st,
  0 <= cap -> rs_readinto peer rf cap w st = rs_readinto_from_src peer rf cap w st.
Proof. exact @src_rs_readinto_eq. Qed.

(* the exchange itself: which frame is awaited, when the queue is replaced, that ONE request is sent, and that a missing
   response is answered by the abort frame [0x80, 0, 0, 0, code little-endian] with the code in the source text (0x05040000)
   after MAX_RETRIES (regenerated: SDO_MAX_RETRIES) attempts *)
Theorem C01_src_request_response : forall (S : Type) (peer : S -> frame -> S * list (frame)) (w : world) req,
  request_response peer w req = request_response_from_src peer w req.
Proof. exact @src_request_response_eq. Qed.

Theorem C01_src_read_response : forall (S : Type) (w : @world S), read_response w = read_response_from_src w.
Proof. exact @src_read_response_eq. Qed.

Theorem C01_src_abort_frame : forall code, abort_frame code = abort_frame_from_src code.
Proof. exact src_abort_eq. Qed.

Theorem C01_src_upload_truncation : forall odt response_size data,
  truncate odt response_size data = truncate_from_src odt response_size data.
Proof. exact src_upload_eq. Qed.

(* non-vacuity of the tie: the skeletons on concrete states.  A 10-byte download of declared size: initiate byte 0x21;
   second segment (3 bytes at pos 7, toggle 0x10) has byte 0 = 0x10 | (7-3)<<1 | 1 = 0x19 and completes the stream;
   close() of an unfinished stream of unknown size sends 0x0F | toggle; an expedited upload response 0x4B (e, s, n=2)
   gives size 2; a final 2-byte upload segment 0x1B with toggle 0x10. *)
Example C01_nv_src :
  src_ws_init true 10 false false 96 = (1, 33, true, false, false, false, 0, 0) /\
  src_ws_init true 3 false false 96 = (1, 39, false, true, false, false, 0, 0) /\
  src_ws_write false false false true 10 7 16 3 false 48 0 0 false = (1, 25, 3, 0, true, false, 10, 3) /\
  src_ws_write false false false true 10 7 16 3 true 0 0 0 false = (6, 25, 3, 16, true, true, 7, 0) /\
  src_ws_close false false 16 false 0 = (true, 31, true) /\
  src_rs_init 8192 1 75 8192 1 4 0 false 0 0 = (1, true, 2, 1, 2, 0, false) /\
  src_rs_read false false 7 false false 16 7 27 0 0 = (7, 112, 0, true, 9, 2).
Proof. vm_compute. repeat split; reflexivity. Qed.

(* a lost response with an empty queue: one request sent, then the abort 0x05040000; a stale frame in the queue is
   dropped first; an abort frame from the server (0x80) raises SdoAbortedError *)
Example C01_nv_src_exchange :
  src_request_response SDO_MAX_RETRIES true true false 0 0 = (2, false, 1, 84148224, 0) /\
  src_request_response SDO_MAX_RETRIES false false false 0 0 = (1, true, 1, 0, 1) /\
  src_read_response false 128 = 1 /\ src_read_response false 96 = 2 /\ src_read_response true 0 = 0 /\
  abort_frame_from_src 84148224 = [128; 0; 0; 0; 0; 0; 4; 5].
Proof. vm_compute. repeat split; reflexivity. Qed.

Print Assumptions C01_download_delivers.
Print Assumptions C01_download_api.
Print Assumptions C01_upload_returns.
Print Assumptions C01_upload_numeric.
Print Assumptions C01_upload_plain.
Print Assumptions C01_array_member_declared.
Print Assumptions C01_raw_read_returns.
Print Assumptions C01_buffered_read_returns.
Print Assumptions C01_back_to_back.
Print Assumptions C01_src_ws_init.
Print Assumptions C01_src_ws_write.
Print Assumptions C01_src_ws_close.
Print Assumptions C01_src_rs_init.
Print Assumptions C01_src_rs_read.
Print Assumptions C01_src_upload_truncation.
Print Assumptions C01_src_request_response.
Print Assumptions C01_src_read_response.
Print Assumptions C01_src_abort_frame.
Print Assumptions C01_src_rs_readinto.
