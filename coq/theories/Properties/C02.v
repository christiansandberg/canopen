(* C02 - SDO server serves and stores object values exactly, in conformant CiA 301 frames.
   Statements only: each theorem is [exact] of a lemma of Proofs/{SdoServer_proofs.v, Src_eq_sdo.v, Src_eq_c06.v};
   the examples are concrete instances.
   Model: Model/SdoServer.v (SdoServer.on_request and its handlers, LocalNode.get_data / set_data /
   _find_object, the object dictionary look-ups), encode_raw of OD variables = Model/Codec.v (C04);
   reference peer: Model/RefClient.v (conformant CiA 301 client written from the standard, and the
   rules for one well-formed response per request); constants: Gen/SdoTables.v, Gen/Tables.v,
   regenerated from /repo on every run.
   [d] is any object dictionary, [rcb] any application read callback, [st] ANY server/node state
   (any running transfer, any store, any callback log) unless stated otherwise. *)
From Coq Require Import ZArith List Bool.
From CV Require Import Base.Val Base.Bytes Base.Tys Gen.Tables Gen.SdoTables Model.Codec Model.RefClient
  Model.SdoServer Proofs.SdoServer_proofs Gen.SrcC02 Proofs.Src_eq_sdo Gen.SrcC06 Proofs.Src_eq_c06.
Import ListNotations.
Open Scope Z_scope.

(* For every readable entry and whatever supplies its value - read callback, stored (downloaded)
   data, parameter value, default, in that precedence ([supplies]) - of ANY length below 2^32
   (the size field has 32 bits), the conformant reference client obtains exactly those bytes, the
   empty value included.  The frames the server sends are exactly [upload_frames idx sub data]:
   an expedited response with n = 4 - length for 1..4 bytes; otherwise the initiate response
   announcing the true size followed by segments whose toggle alternates from 0, which carry the
   data in 7-byte chunks and flag c = 1 exactly on the segment that exhausts the data.
   Nothing is stored, the read callback is asked once, no write callback is invoked. *)
Theorem C02_upload_exact : forall d rcb st idx sub v data fuel,
  0 <= idx < 65536 ->
  find_object d idx sub = Ok v -> readable v = true -> supplies rcb st idx sub v data ->
  zlen data < 2 ^ 32 -> (length data <= 7 * fuel)%nat -> (1 <= fuel)%nat ->
  exists st', ref_upload (on_request d rcb) fuel st idx sub = (st', Ok data, upload_frames idx sub data) /\
              s_store st' = s_store st /\ s_log st' = s_log st ++ [EvR idx sub] /\
              s_index st' = idx /\ s_sub st' = sub /\ s_lasterr st' = s_lasterr st.
Proof. exact upload_exact. Qed.

(* Every accepted download - expedited with size (mode 0, 1..4 bytes), expedited without size
   (mode 1, 4 bytes), segmented with size (mode 2) and without (mode 3), of any length - to a
   writable entry (numeric entries: of the entry's length) stores exactly the transferred bytes
   and shows exactly them to the write callback, once. *)
Theorem C02_download_exact : forall d rcb st idx sub v data mode req fuel,
  0 <= idx < 65536 -> 0 <= sub < 256 ->
  download_request idx sub data mode = Some req ->
  find_object d idx sub = Ok v -> writable v = true -> length_ok v data = true ->
  (length data <= 7 * fuel)%nat -> (1 <= fuel)%nat ->
  exists st' tr, ref_download (on_request d rcb) fuel st idx sub data mode = (st', Ok [], tr) /\
                 s_store st' = ((idx, sub), data) :: s_store st /\
                 s_log st' = s_log st ++ [EvW idx sub data].
Proof. exact download_exact. Qed.

(* ... and a later upload (no read callback answering for the entry) returns exactly those bytes *)
Theorem C02_download_then_upload : forall d rcb st idx sub v data mode req fuel,
  0 <= idx < 65536 -> 0 <= sub < 256 ->
  download_request idx sub data mode = Some req ->
  find_object d idx sub = Ok v -> writable v = true -> length_ok v data = true ->
  readable v = true -> rcb idx sub = None -> zlen data < 2 ^ 32 ->
  (length data <= 7 * fuel)%nat -> (1 <= fuel)%nat ->
  exists st1 tr1 st2,
    ref_download (on_request d rcb) fuel st idx sub data mode = (st1, Ok [], tr1) /\
    s_log st1 = s_log st ++ [EvW idx sub data] /\
    ref_upload (on_request d rcb) fuel st1 idx sub = (st2, Ok data, upload_frames idx sub data).
Proof. exact download_then_upload. Qed.

(* For every history of frames of 1..8 bytes (any bytes: restarts, out-of-sequence segments,
   unknown commands, truncated frames) fed to a freshly created server (any initial data_store),
   on_request never raises, every frame other than a client abort draws exactly one 8-byte
   response that is well formed for the request and echoes the multiplexer as [resp_wf] demands
   (Model/RefClient.v; permissive where the standard is silent), a full client abort draws none. *)
Theorem C02_one_response_per_request : forall d rcb st0 frames,
  Forall frame_ok frames ->
  check_hist (0, 0) frames (snd (run_frames d rcb (fresh_state st0) frames)) = true.
Proof. exact one_response_per_request. Qed.

(* the same as a step invariant: from any state satisfying [mux_inv] (kept by every step) *)
Theorem C02_step_invariant : forall d rcb st req,
  mux_inv st -> frame_ok req -> step_ok st req (on_request d rcb st req).
Proof. exact on_request_ok. Qed.


(* a 20-byte parameter value shadowing a default: three segments *)
Example C02_nv_upload_exact :
  find_object nv_dict 0x2000 0 = Ok nv_var /\ readable nv_var = true /\
  supplies nv_rcb (fresh_state []) 0x2000 0 nv_var nv_data /\
  snd (fst (ref_upload (on_request nv_dict nv_rcb) 4 (fresh_state []) 0x2000 0)) = Ok nv_data /\
  length (upload_frames 0x2000 0 nv_data) = 4%nat.
Proof.
  split; [vm_compute; reflexivity|]. split; [vm_compute; reflexivity|]. split.
  - right. right. left. split; [reflexivity|]. split; [reflexivity|]. exists (PBytes nv_data). split; vm_compute; reflexivity.
  - split; vm_compute; reflexivity.
Qed.

(* a 20-byte segmented download without size indication, and a 2-byte expedited one to a numeric entry *)
Example C02_nv_download_exact :
  download_request 0x2000 0 nv_data 3 <> None /\ writable nv_var = true /\ length_ok nv_var nv_data = true /\
  snd (fst (ref_download (on_request nv_dict nv_rcb) 4 (fresh_state []) 0x2000 0 nv_data 3)) = Ok [] /\
  snd (fst (ref_download (on_request nv_dict nv_rcb) 4 (fresh_state []) 0x2001 0 [7; 8] 0)) = Ok [] /\
  length_ok (mkVar (Some dt_UNSIGNED16) [114; 119] None None) [7; 8] = true.
Proof. repeat split; try (vm_compute; reflexivity). vm_compute. discriminate. Qed.

Example C02_nv_download_then_upload :
  snd (fst (ref_upload (on_request nv_dict nv_rcb) 4
             (fst (fst (ref_download (on_request nv_dict nv_rcb) 4 (fresh_state []) 0x2000 0 [5; 6; 7; 8; 9] 2))) 0x2000 0))
  = Ok [5; 6; 7; 8; 9].
Proof. vm_compute. reflexivity. Qed.

(* a history on a fresh server: segment request out of sequence, unknown command, truncated frame,
   upload, wrong toggle, block download, client abort, truncated client abort *)

Example C02_nv_one_response_per_request :
  forallb (fun f => bytes_okb f && (1 <=? zlen f) && (zlen f <=? 8)) nv_hist = true /\
  map (fun o => length (fst o)) (snd (run_frames nv_dict nv_rcb (fresh_state []) nv_hist)) = [1; 1; 1; 1; 1; 1; 1; 0; 1; 1; 1]%nat /\
  s_store (fst (run_frames nv_dict nv_rcb (fresh_state []) nv_hist)) = [((0x2001, 0), [9; 1])].
Proof. repeat split; vm_compute; reflexivity. Qed.

(* Tie to the source text: SdoServer.segmented_upload as translated from the CURRENT source by tools/py2coq.py
   (Gen/SrcC02.v, regenerated on every run) computes the command byte (toggle, unused-byte count, last-segment flag)
   and the next toggle of the model's segmented_upload; a toggle mismatch is the abort 0x05030000 in both. *)
Theorem C02_source_segmented_upload_is_model : forall st command buf, s_buf st = Some buf ->
  match src_server_segmented_upload command (s_toggle st) (zlen buf) with
  | None => segmented_upload st command = (st, Abort AB_TOGGLE)
  | Some (c, t) => exists data st', segmented_upload st command = (st', Ok [c :: data]) /\ s_toggle st' = t
  end.
Proof. exact src_server_segmented_upload_eq. Qed.

(* the same tie for the two translated functions that belong to C02's statement (Gen/SrcC06.v, tools/tables/src_c06.py) *)
(* on_request dispatches on the client command specifier and turns every exception into exactly one abort *)
Theorem C02_src_dispatch : forall d rcb st c rest,
  on_request d rcb st (c :: rest) =
  let h := src_dispatch c 0 in
  let '(st1, r) :=
    if h =? 1 then init_upload d rcb st (c :: rest)
    else if h =? 2 then segmented_upload st c
    else if h =? 3 then init_download d st (c :: rest)
    else if h =? 4 then segmented_download d st c (c :: rest)
    else if h =? 5 then (if src_block_upload 0 =? 1 then init_upload d rcb st (c :: rest) else (st, Err E_FUEL))
    else if h =? 6 then (st, Abort (src_block_download 0))
    else if h =? 7 then request_aborted st (c :: rest)
    else (st, Abort 0x05040001) in
  match r with
  | Ok rs => (st1, rs, false)
  | Abort code => do_abort st1 code
  | Err k => do_abort st1 (if k =? E_KEY then 0x06020000 else src_abort_default)
  end.
Proof. exact src_dispatch_eq. Qed.

(* segmented_download appends request[1:last_byte] (n honoured in every segment) and stores through set_data on the last segment *)
Theorem C02_src_segmented_download : forall d st command req buf,
  s_buf st = Some buf ->
  let lb := 8 - Z.land (Z.shiftr command 1) 7 in
  let buf1 := buf ++ firstn (Z.to_nat (lb - 1)) (skipn 1 req) in
  let st1 := set_buf st (Some buf1) (s_toggle st) in
  let sd := set_data d st1 (s_index st) (s_sub st) buf1 true in
  let '(code, extended, last_byte, setcalled, resc, tg) :=
    src_segmented_download command (s_toggle st) (code_of (snd sd)) false false in
  if negb extended then code = 0x05030000 /\ segmented_download d st command req = (st, Abort code)
  else last_byte = lb /\
       if code =? 0 then
         let st2 := if setcalled then fst sd else st1 in
         segmented_download d st command req = (set_buf st2 (s_buf st2) tg, Ok [[resc; 0; 0; 0; 0; 0; 0; 0]])
       else setcalled = true /\ segmented_download d st command req = (fst sd, Abort code).
Proof. exact src_segmented_download_eq. Qed.

Print Assumptions C02_upload_exact.
Print Assumptions C02_download_exact.
Print Assumptions C02_download_then_upload.
Print Assumptions C02_one_response_per_request.
Print Assumptions C02_step_invariant.
Print Assumptions C02_source_segmented_upload_is_model.
Print Assumptions C02_src_dispatch.
Print Assumptions C02_src_segmented_download.
