(* C18 - LSS fast scan finds the one unconfigured device's identity, bit for bit; LSS request frames;
   inquire / configure / store results and errors; selective switch.
   Statements only: each theorem is [exact] of a lemma of Proofs/{Lss_proofs.v, Src_eq_c18.v};
   the examples are concrete instances.
   Model: Model/Lss.v (canopen/lss.py LssMaster + the bus side of network.py), reference slave written from
   CiA 305: Model/RefLssSlave.v; tables: Gen/LssTables.v regenerated from lss.py on every run.
   Definitions used in the statements (Proofs/Lss_proofs.v): u8/u16/u32 ranges; [sent b] the frames the library put
   on the bus; [answer peer st msg] the first frame the peer sends on the slave's COB-ID in reaction to msg;
   [std_requests op] the frames CiA 305 prescribes for a call; [fs_wf] a well-formed fast-scan request. *)
From Coq Require Import ZArith List Bool.
From CV Require Import Base.Val Base.Bytes Base.Tys Gen.LssTables Gen.SrcC18 Model.RefLssSlave Model.Lss Proofs.Lss_proofs
  Proofs.Src_eq_c18.
Import ListNotations.
Open Scope Z_scope.

(* tie to the current source: lss.py's constants are the standard's *)
Theorem C18_tables_are_cia305 :
  LSS_TX_COBID = STD_MASTER_COBID /\ LSS_RX_COBID = STD_SLAVE_COBID /\
  [CS_SWITCH_STATE_GLOBAL; CS_CONFIGURE_NODE_ID; CS_CONFIGURE_BIT_TIMING; CS_ACTIVATE_BIT_TIMING; CS_STORE_CONFIGURATION] =
  [STD_SWITCH_GLOBAL; STD_CFG_NODE_ID; STD_CFG_BIT_TIMING; STD_ACTIVATE_BIT_TIMING; STD_STORE] /\
  [CS_SWITCH_STATE_SELECTIVE_VENDOR_ID; CS_SWITCH_STATE_SELECTIVE_PRODUCT_CODE; CS_SWITCH_STATE_SELECTIVE_REVISION_NUMBER;
   CS_SWITCH_STATE_SELECTIVE_SERIAL_NUMBER; CS_SWITCH_STATE_SELECTIVE_RESPONSE] =
  [STD_SEL_VENDOR; STD_SEL_PRODUCT; STD_SEL_REVISION; STD_SEL_SERIAL; STD_SEL_RESPONSE] /\
  [CS_IDENTIFY_REMOTE_SLAVE_VENDOR_ID; CS_IDENTIFY_REMOTE_SLAVE_PRODUCT_CODE; CS_IDENTIFY_REMOTE_SLAVE_REVISION_NUMBER_LOW;
   CS_IDENTIFY_REMOTE_SLAVE_REVISION_NUMBER_HIGH; CS_IDENTIFY_REMOTE_SLAVE_SERIAL_NUMBER_LOW;
   CS_IDENTIFY_REMOTE_SLAVE_SERIAL_NUMBER_HIGH; CS_IDENTIFY_NON_CONFIGURED_REMOTE_SLAVE; CS_IDENTIFY_SLAVE;
   CS_IDENTIFY_NON_CONFIGURED_SLAVE; CS_FAST_SCAN] =
  [STD_IDENT_VENDOR; STD_IDENT_PRODUCT; STD_IDENT_REV_LOW; STD_IDENT_REV_HIGH; STD_IDENT_SER_LOW; STD_IDENT_SER_HIGH;
   STD_IDENT_NON_CONFIGURED; STD_IDENTIFY_SLAVE; STD_IDENTIFY_NON_CONFIGURED_SLAVE; STD_FAST_SCAN] /\
  [CS_INQUIRE_VENDOR_ID; CS_INQUIRE_PRODUCT_CODE; CS_INQUIRE_REVISION_NUMBER; CS_INQUIRE_SERIAL_NUMBER; CS_INQUIRE_NODE_ID] =
  [STD_INQ_VENDOR; STD_INQ_VENDOR + 1; STD_INQ_VENDOR + 2; STD_INQ_SERIAL; STD_INQ_NODE_ID] /\
  ERROR_NONE = 0 /\ WAITING_STATE = ST_WAITING /\ CONFIGURATION_STATE = ST_CONFIGURATION.
Proof. exact tables_are_cia305. Qed.

(* the requests the master waits on (ListMessageNeedResponse) are exactly the confirmed services; all 256 specifiers *)
Theorem C18_need_response_table : forall cs, 0 <= cs < 256 ->
  zmem cs ListMessageNeedResponse = confirmed_service cs.
Proof. exact need_response_table. Qed.

(* fast scan: for ALL four 32-bit parts (all 2^128 identities), every state of the rest of the slave,
        whatever is left in the master's queue: success, exactly that identity, slave in configuration state *)
Theorem C18_fast_scan_finds_identity : forall v p r s q b pos sel idn0 bt dl sn sb se,
  u32 v -> u32 p -> u32 r -> u32 s ->
  exists b',
  fast_scan slave_step (mkM q (mkSlave [v; p; r; s] ST_WAITING NODE_UNCONFIGURED pos sel idn0 bt dl sn sb se) b) =
  (mkM [] (mkSlave [v; p; r; s] ST_CONFIGURATION NODE_UNCONFIGURED 0 sel idn0 bt dl sn sb se) b',
   Ok (true, Some [v; p; r; s])).
Proof. exact fast_scan_finds_identity. Qed.

(* the loop invariant behind it: the inner loop started at bit n with an id that agrees with the slave's number
   on bits 31..n (and is 0 below) ends with the slave's number *)
Theorem C18_scan_bits_invariant : forall ids sel idn0 bt dl sn sb se sub,
  0 <= sub < 4 -> u32 (nth (Z.to_nat sub) ids 0) ->
  forall n q b, (n <= 32)%nat ->
  exists q' b',
  scan_bits slave_step n (mkM q (SL ids sel idn0 bt dl sn sb se ST_WAITING sub) b)
            (hi (nth (Z.to_nat sub) ids 0) (Z.of_nat n)) sub sub =
  (mkM q' (SL ids sel idn0 bt dl sn sb se ST_WAITING sub) b', Ok (nth (Z.to_nat sub) ids 0)).
Proof. exact scan_bits_ok. Qed.

(* no slave: nobody answers the first frame on the slave's COB-ID -> (False, None) after exactly one request *)
Theorem C18_fast_scan_no_slave : forall (P : Type) (peer : P -> Z -> list Z -> P * list (Z * list Z)) (st : mstate P),
  rxq (snd (peer (pst st) LSS_TX_COBID fs_first)) = [] ->
  snd (fast_scan peer st) = Ok (false, None) /\
  sent (bus (fst (fast_scan peer st))) = sent (bus st) ++ [(STD_MASTER_COBID, fs_first)].
Proof. exact @fast_scan_no_answer. Qed.

Theorem C18_fast_scan_slave_not_taking_part : forall s q b,
  (sl_mode s =? ST_WAITING) && (sl_node s =? NODE_UNCONFIGURED) = false ->
  snd (fast_scan slave_step (mkM q s b)) = Ok (false, None).
Proof. exact fast_scan_slave_not_taking_part. Qed.

(* request frames, against ANY peer *)
(* every call with arguments inside the protocol's ranges puts exactly the prescribed frames on the master's COB-ID *)
Theorem C18_requests_wellformed : forall (P : Type) (peer : P -> Z -> list Z -> P * list (Z * list Z)) (st : mstate P) o,
  op_in_range o ->
  sent (bus (fst (run_op peer st o))) = sent (bus st) ++ map (fun f => (STD_MASTER_COBID, f)) (std_requests o).
Proof. exact @requests_exact. Qed.

(* ... and those are full 8-byte frames (specifier, little-endian fields, reserved bytes zero: see std_requests) *)
Theorem C18_requests_are_8_bytes : forall o, op_in_range o ->
  Forall (fun f => length f = 8%nat /\ bytes_ok f) (std_requests o).
Proof. exact std_requests_shape. Qed.

(* every frame of a fast scan, whatever the peer answers, is a well-formed fast-scan request *)
Theorem C18_fast_scan_requests_wellformed : forall (P : Type) (peer : P -> Z -> list Z -> P * list (Z * list Z)) (st : mstate P),
  exists l, sent (bus (fst (fast_scan peer st))) = sent (bus st) ++ l /\ Forall fs_wf l.
Proof. exact @fast_scan_requests_wellformed. Qed.

(* service results, against ANY peer: the slave's answer, LssError on silence / wrong specifier / error code *)
Theorem C18_configure_results : forall (P : Type) (peer : P -> Z -> list Z -> P * list (Z * list Z)) (st : mstate P) n,
  u8 n ->
  snd (configure_node_id peer st n) = cfg_result STD_CFG_NODE_ID (answer peer st (pad8 [STD_CFG_NODE_ID; n])) /\
  snd (configure_bit_timing peer st n) = cfg_result STD_CFG_BIT_TIMING (answer peer st (pad8 [STD_CFG_BIT_TIMING; 0; n])) /\
  snd (store_configuration peer st) = cfg_result STD_STORE (answer peer st (pad8 [STD_STORE])).
Proof. exact @configure_results. Qed.

Theorem C18_inquire_node_id_result : forall (P : Type) (peer : P -> Z -> list Z -> P * list (Z * list Z)) (st : mstate P),
  snd (inquire_node_id peer st) = inq_node_result (answer peer st (pad8 [STD_INQ_NODE_ID])).
Proof. exact @inquire_node_id_result. Qed.

Theorem C18_inquire_lss_address_result : forall (P : Type) (peer : P -> Z -> list Z -> P * list (Z * list Z)) (st : mstate P) cs,
  STD_INQ_VENDOR <= cs <= STD_INQ_SERIAL ->
  snd (inquire_lss_address peer st cs) = inq_addr_result cs (answer peer st (pad8 [cs])).
Proof. exact @inquire_lss_address_result. Qed.

Theorem C18_switch_selective_result : forall (P : Type) (peer : P -> Z -> list Z -> P * list (Z * list Z)) (st : mstate P) v p r s,
  u32 v -> u32 p -> u32 r -> u32 s ->
  exists st3, sent (bus st3) = sent (bus st) ++ map (fun f => (STD_MASTER_COBID, f))
                 [pad8 (STD_SEL_VENDOR :: le_encode 4 v); pad8 (STD_SEL_PRODUCT :: le_encode 4 p);
                  pad8 (STD_SEL_REVISION :: le_encode 4 r)] /\
  snd (switch_state_selective peer st v p r s) =
  match answer peer st3 (pad8 (STD_SEL_SERIAL :: le_encode 4 s)) with
  | None => Err E_LSS
  | Some [] => Err E_STRUCT
  | Some (c :: _) => Ok (c =? STD_SEL_RESPONSE)
  end.
Proof. exact @switch_selective_result. Qed.

(* against the reference slave *)
Theorem C18_switch_selective_confirmed : forall v p r s, u32 v -> u32 p -> u32 r -> u32 s ->
  forall pos idn0 bt dl sn sb se q b node sel, exists b',
  switch_state_selective slave_step (mkM q (mkSlave [v; p; r; s] ST_WAITING node pos sel idn0 bt dl sn sb se) b) v p r s =
  (mkM [] (mkSlave [v; p; r; s] ST_CONFIGURATION node pos 0 idn0 bt dl sn sb se) b', Ok true).
Proof. exact switch_selective_confirmed. Qed.

Theorem C18_inquire_against_slave : forall v p r s, u32 v -> u32 p -> u32 r -> u32 s ->
  forall pos idn0 bt dl sn sb se q b node sel,
  (exists b', inquire_node_id slave_step (mkM q (mkSlave [v; p; r; s] ST_CONFIGURATION node pos sel idn0 bt dl sn sb se) b) =
              (mkM [] (mkSlave [v; p; r; s] ST_CONFIGURATION node pos sel idn0 bt dl sn sb se) b', Ok node)) /\
  (forall i, 0 <= i < 4 -> exists b',
     inquire_lss_address slave_step (mkM q (mkSlave [v; p; r; s] ST_CONFIGURATION node pos sel idn0 bt dl sn sb se) b)
                         (STD_INQ_VENDOR + i) =
     (mkM [] (mkSlave [v; p; r; s] ST_CONFIGURATION node pos sel idn0 bt dl sn sb se) b', Ok (nth (Z.to_nat i) [v; p; r; s] 0))).
Proof. exact inquire_against_slave. Qed.

(* node ids 0..255: accepted exactly when CiA 305 allows them (1..127, 255); otherwise LssError and nothing changes *)
Theorem C18_configure_node_id_against_slave : forall v p r s pos idn0 bt dl sn sb se q b node sel n, u8 n -> exists b',
  configure_node_id slave_step (mkM q (mkSlave [v; p; r; s] ST_CONFIGURATION node pos sel idn0 bt dl sn sb se) b) n =
  (mkM [] (mkSlave [v; p; r; s] ST_CONFIGURATION (if node_id_valid n then n else node) pos sel idn0 bt dl sn sb se) b',
   if node_id_valid n then Ok tt else Err E_LSS).
Proof. exact configure_node_id_slave. Qed.

Theorem C18_configure_bit_timing_against_slave : forall v p r s pos idn0 bt dl sn sb se q b node sel n, u8 n -> exists b',
  configure_bit_timing slave_step (mkM q (mkSlave [v; p; r; s] ST_CONFIGURATION node pos sel idn0 bt dl sn sb se) b) n =
  (mkM [] (mkSlave [v; p; r; s] ST_CONFIGURATION node pos sel idn0 (if bit_timing_valid 0 n then n else bt) dl sn sb se) b',
   if bit_timing_valid 0 n then Ok tt else Err E_LSS).
Proof. exact configure_bit_timing_slave. Qed.

Theorem C18_store_against_slave : forall v p r s pos idn0 bt dl sn sb se q b node sel, exists b',
  store_configuration slave_step (mkM q (mkSlave [v; p; r; s] ST_CONFIGURATION node pos sel idn0 bt dl sn sb se) b) =
  (mkM [] (mkSlave [v; p; r; s] ST_CONFIGURATION node pos sel idn0 bt dl (if se =? 0 then node else sn)
                   (if se =? 0 then bt else sb) se) b',
   if se =? 0 then Ok tt else Err E_LSS).
Proof. exact store_configuration_slave. Qed.

Example C18_nv_fast_scan :
  u32 305419896 /\ u32 4294967295 /\ u32 0 /\ u32 2147483649 /\
  snd (fast_scan slave_step (mkM [[1; 2]] (mkSlave [305419896; 4294967295; 0; 2147483649] ST_WAITING NODE_UNCONFIGURED 2 1 0 0 0 0 0 0) [])) =
    Ok (true, Some [305419896; 4294967295; 0; 2147483649]) /\
  length (sent (bus (fst (fast_scan slave_step (mkM [] (mkSlave [305419896; 4294967295; 0; 2147483649] ST_WAITING NODE_UNCONFIGURED 0 0 0 0 0 0 0 0) []))))) = 133%nat.
Proof. vm_compute. repeat split; try reflexivity; discriminate. Qed.

Example C18_nv_no_slave :
  rxq (snd (peer_step (PScript []) LSS_TX_COBID fs_first)) = [] /\
  (sl_mode (mkSlave [1; 2; 3; 4] ST_WAITING 5 0 0 0 0 0 0 0 0) =? ST_WAITING) && (5 =? NODE_UNCONFIGURED) = false.
Proof. vm_compute. split; reflexivity. Qed.

Example C18_nv_requests :
  op_in_range (OSelective 1 2 3 4294967295) /\ op_in_range (OCfgNode 127) /\ op_in_range (OActivate 65535) /\
  std_requests (OActivate 513) = [[21; 1; 2; 0; 0; 0; 0; 0]] /\
  std_requests (OSelective 1 2 3 67305985) = [[64; 1; 0; 0; 0; 0; 0; 0]; [65; 2; 0; 0; 0; 0; 0; 0]; [66; 3; 0; 0; 0; 0; 0; 0]; [67; 1; 2; 3; 4; 0; 0; 0]].
Proof. vm_compute. repeat split; try reflexivity; discriminate. Qed.

Example C18_nv_results :
  cfg_result 17 (Some [17; 0; 0; 0; 0; 0; 0; 0]) = Ok tt /\ cfg_result 17 (Some [17; 1; 0; 0; 0; 0; 0; 0]) = Err E_LSS /\
  cfg_result 17 (Some [19; 0; 0; 0; 0; 0; 0; 0]) = Err E_LSS /\ cfg_result 17 None = Err E_LSS /\
  inq_node_result (Some [94; 42; 0; 0; 0; 0; 0; 0]) = Ok 42 /\
  inq_addr_result 93 (Some [93; 4; 3; 2; 1; 0; 0; 0]) = Ok 16909060 /\
  node_id_valid 127 = true /\ node_id_valid 128 = false /\ node_id_valid 0 = false /\ u8 200 /\
  snd (configure_node_id slave_step (mkM [[17; 0]] (mkSlave [1; 2; 3; 4] ST_CONFIGURATION 255 0 0 0 0 0 0 0 0) []) 200) = Err E_LSS.
Proof. vm_compute. repeat split; try reflexivity; discriminate. Qed.

(* source tie (DESIGN.md 4.3): the decision logic translated from the CURRENT source text of canopen/lss.py (Gen/SrcC18.v, regenerated
        on every run by tools/tables/src_c18.py) determines the model functions the theorems above speak about *)
(* __send_fast_scan_message: frame = '<BIBBB' of (0x51, id number, bit_check, lss_sub, lss_next); silence = no,
   otherwise yes iff byte 0 of the reply is CS_IDENTIFY_SLAVE *)
Theorem C18_src_send_fast_scan_message : forall (P : Type) (peer : P -> Z -> list Z -> P * list (Z * list Z)) (st : mstate P) idn bc sub nxt,
  u32 idn -> u8 bc -> u8 sub -> u8 nxt ->
  let '(p0, p1, p2, p3, p4, _) := src_send_fast_scan_message idn bc sub nxt true 0 in
  send_fast_scan_message peer st idn bc sub nxt =
  match send_command peer st (p0 :: le_encode 4 p1 ++ [p2; p3; p4]) with
  | (st1, Err k) =>
      if k =? E_LSS then (st1, Ok (snd (src_send_fast_scan_message idn bc sub nxt true 0))) else (st1, Err k)
  | (st1, Abort c) => (st1, Abort c)
  | (st1, Ok None) => (st1, Err E_TYPE)
  | (st1, Ok (Some [])) => (st1, Err E_STRUCT)
  | (st1, Ok (Some (r0 :: _))) => (st1, Ok (snd (src_send_fast_scan_message idn bc sub nxt false r0)))
  end.
Proof. exact @src_send_fast_scan_message_eq. Qed.

(* fast_scan: the inner loop runs while lss_bit_check > 0 ... *)
Theorem C18_src_scan_bits_continue : forall n,
  src_scan_bits_continue (Z.of_nat n) = match n with O => false | S _ => true end.
Proof. exact src_scan_bits_continue_eq. Qed.

(* ... and one unfolding of the model's inner loop is the translated loop body *)
Theorem C18_src_scan_bit : forall (P : Type) (peer : P -> Z -> list Z -> P * list (Z * list Z)) (st : mstate P) k idn sub nxt,
  fst (src_scan_bit idn (Z.of_nat (S k)) sub nxt true) = Z.of_nat k /\
  scan_bits peer (S k) st idn sub nxt =
  sbind (send_fast_scan_message peer st idn (fst (src_scan_bit idn (Z.of_nat (S k)) sub nxt true)) sub nxt)
        (fun st found => scan_bits peer k st (snd (src_scan_bit idn (Z.of_nat (S k)) sub nxt found)) sub nxt).
Proof. exact (fun P peer st k => @src_scan_bit_eq P peer k st). Qed.

(* the outer loop runs while lss_sub < 4 (n parts left = lss_sub is 4 - n) ... *)
Theorem C18_src_scan_parts_continue : forall n, (n <= 4)%nat ->
  src_scan_parts_continue (4 - Z.of_nat n) = match n with O => false | S _ => true end.
Proof. exact src_scan_parts_continue_eq. Qed.

(* ... and one unfolding of the model's outer loop is the translated body around the inner loop *)
Theorem C18_src_scan_part : forall (P : Type) (peer : P -> Z -> list Z -> P * list (Z * list Z)) (st : mstate P) k l sub nxt,
  src_scan_bits_continue 0 = false /\
  scan_parts peer (S k) st l sub nxt =
  sbind (scan_bits peer (Z.to_nat src_scan_part_pre) st (nth (Z.to_nat sub) l 0) sub nxt) (fun st idn =>
  sbind (send_fast_scan_message peer st idn 0 sub (snd (src_scan_part_post sub nxt true))) (fun st ok =>
  let '(go, sub', nxt') := src_scan_part_post sub nxt ok in
  if go then scan_parts peer k st (upd l sub idn) sub' nxt' else (st, Ok (false, None)))).
Proof. exact (fun P peer st k => @src_scan_part_eq P peer k st). Qed.

Theorem C18_src_fast_scan_init : forall (P : Type) (peer : P -> Z -> list Z -> P * list (Z * list Z)) (st : mstate P),
  let '(id0, bc, sub, nxt) := src_fast_scan_init in
  fast_scan peer st =
  sbind (send_fast_scan_message peer st id0 bc sub nxt) (fun st ok =>
  if ok then scan_parts peer 4 st [id0; id0; id0; id0] sub nxt else (st, Ok (false, None))).
Proof. exact @src_fast_scan_init_eq. Qed.

Theorem C18_src_send_inquire_node_id : forall (P : Type) (peer : P -> Z -> list Z -> P * list (Z * list Z)) (st : mstate P),
  inquire_node_id peer st =
  match send_command peer st [fst (fst (src_send_inquire_node_id 0 0 0)); 0; 0; 0; 0; 0; 0; 0] with
  | (st1, Ok (Some (r0 :: r1 :: _))) =>
      let '(_, code, v) := src_send_inquire_node_id r0 r1 0 in
      if code =? 1 then (st1, Ok v) else (st1, Err E_LSS)
  | (st1, Ok (Some _)) => (st1, Err E_STRUCT)
  | (st1, Ok None) => (st1, Err E_TYPE)
  | (st1, Err k) => (st1, Err k)
  | (st1, Abort c) => (st1, Abort c)
  end.
Proof. exact @src_send_inquire_node_id_eq. Qed.

Theorem C18_src_send_inquire_lss_address : forall (P : Type) (peer : P -> Z -> list Z -> P * list (Z * list Z)) (st : mstate P) cs, u8 cs ->
  (forall r0 r1 b, fst (fst (src_send_inquire_lss_address cs r0 r1 b)) = cs) /\
  inquire_lss_address peer st cs =
  match send_command peer st [cs; 0; 0; 0; 0; 0; 0; 0] with
  | (st1, Ok (Some l)) =>
      if 5 <=? zlen l then
        let '(_, code, v) := src_send_inquire_lss_address cs (nth 0 l 0) (le_decode (firstn 4 (skipn 1 l))) 0 in
        if code =? 1 then (st1, Ok v) else (st1, Err E_LSS)
      else (st1, Err E_STRUCT)
  | (st1, Ok None) => (st1, Err E_TYPE)
  | (st1, Err k) => (st1, Err k)
  | (st1, Abort c) => (st1, Abort c)
  end.
Proof. exact @src_send_inquire_lss_address_eq. Qed.

Theorem C18_src_send_configure : forall (P : Type) (peer : P -> Z -> list Z -> P * list (Z * list Z)) (st : mstate P) cs v1 v2, u8 cs -> u8 v1 -> u8 v2 ->
  (forall r0 r1 x y z, let '(b0, b1, b2, _) := src_send_configure cs v1 v2 r0 r1 x y z in (b0, b1, b2) = (cs, v1, v2)) /\
  send_configure peer st cs v1 v2 =
  match send_command peer st [cs; v1; v2; 0; 0; 0; 0; 0] with
  | (st1, Ok (Some (r0 :: r1 :: _))) =>
      let '(_, _, _, code) := src_send_configure cs v1 v2 r0 r1 0 0 0 in
      if code =? 1 then (st1, Ok tt) else (st1, Err E_LSS)
  | (st1, Ok (Some _)) => (st1, Err E_STRUCT)
  | (st1, Ok None) => (st1, Err E_TYPE)
  | (st1, Err k) => (st1, Err k)
  | (st1, Abort c) => (st1, Abort c)
  end.
Proof. exact @src_send_configure_eq. Qed.

Theorem C18_src_configure_services : forall (P : Type) (peer : P -> Z -> list Z -> P * list (Z * list Z)) (st : mstate P) n,
  (let '(a0, a1, a2) := src_configure_node_id n in configure_node_id peer st n = send_configure peer st a0 a1 a2) /\
  (let '(a0, a1, a2) := src_configure_bit_timing n in configure_bit_timing peer st n = send_configure peer st a0 a1 a2) /\
  (let '(a0, a1, a2) := src_store_configuration in store_configuration peer st = send_configure peer st a0 a1 a2).
Proof. exact @src_configure_services_eq. Qed.

(* __send_command: queue replaced (before the frame goes out) iff not empty; frame on LSS_TX_COBID; no answer awaited
   unless message[0] is in ListMessageNeedResponse; empty queue at the time-out = LssError; else head of the queue *)
Theorem C18_src_send_command : forall (P : Type) (peer : P -> Z -> list Z -> P * list (Z * list Z)) (st : mstate P) msg,
  let q_empty := match responses st with [] => true | _ => false end in
  let '(flushed, _, cob, _) := src_send_command q_empty (nth 0 msg 0) true false false 0 in
  let st0 := if flushed then mkM [] (pst st) (bus st) else st in
  let st1 := send_message peer st0 cob msg in
  let timed_out := match responses st1 with [] => true | _ => false end in
  let '(_, sent, _, code) := src_send_command q_empty (nth 0 msg 0) timed_out false false 0 in
  sent = true /\
  send_command peer st msg =
  if code =? 1 then (st1, Ok None)
  else if code =? 2 then (mkM (tl (responses st1)) (pst st1) (bus st1), Ok (hd_error (responses st1)))
  else (st1, Err E_LSS).
Proof. exact @src_send_command_eq. Qed.

Print Assumptions C18_tables_are_cia305.
Print Assumptions C18_need_response_table.
Print Assumptions C18_fast_scan_finds_identity.
Print Assumptions C18_scan_bits_invariant.
Print Assumptions C18_fast_scan_no_slave.
Print Assumptions C18_fast_scan_slave_not_taking_part.
Print Assumptions C18_requests_wellformed.
Print Assumptions C18_requests_are_8_bytes.
Print Assumptions C18_fast_scan_requests_wellformed.
Print Assumptions C18_configure_results.
Print Assumptions C18_inquire_node_id_result.
Print Assumptions C18_inquire_lss_address_result.
Print Assumptions C18_switch_selective_result.
Print Assumptions C18_switch_selective_confirmed.
Print Assumptions C18_inquire_against_slave.
Print Assumptions C18_configure_node_id_against_slave.
Print Assumptions C18_configure_bit_timing_against_slave.
Print Assumptions C18_store_against_slave.
Print Assumptions C18_src_send_fast_scan_message.
Print Assumptions C18_src_scan_bits_continue.
Print Assumptions C18_src_scan_bit.
Print Assumptions C18_src_scan_parts_continue.
Print Assumptions C18_src_scan_part.
Print Assumptions C18_src_fast_scan_init.
Print Assumptions C18_src_send_inquire_node_id.
Print Assumptions C18_src_send_inquire_lss_address.
Print Assumptions C18_src_send_configure.
Print Assumptions C18_src_configure_services.
Print Assumptions C18_src_send_command.
