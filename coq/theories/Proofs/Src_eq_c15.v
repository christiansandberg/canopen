(* Source tie (DESIGN.md 4.3) for C15: PdoMap.on_message / remote_request as translated from the CURRENT source text (Gen/SrcC15.v) agree with
   the model functions of Model/PdoLink.v (C15). *)
From Coq Require Import ZArith List Bool.
From CV Require Import Gen.SrcC15 Model.PdoLink Proofs.PdoLink_proofs.
Import ListNotations.
Open Scope Z_scope.

(* the frame is taken exactly when the model takes it; timestamp and period are updated as in the model
   (an absent timestamp / period is represented by any default d in the translated code) *)
Theorem src_pdo_on_message_eq m can_id data ts dts dper :
  let r := src_pdo_on_message (m_cob m) (m_task m) (match m_ts m with Some _ => true | None => false end)
             (match m_ts m with Some t => t | None => dts end)
             (match m_period m with Some p => p | None => dper end) can_id ts false in
  let m' := fst (on_message m can_id data ts) in
  fst (fst r) = accepts m can_id /\
  (accepts m can_id = true ->
     m_ts m' = Some (snd r) /\
     m_period m' = match m_ts m with Some _ => Some (snd (fst r)) | None => m_period m end) /\
  (accepts m can_id = false -> m' = m).
Proof.
  unfold src_pdo_on_message, on_message, accepts. cbv zeta.
  rewrite (Z.eqb_sym can_id (m_cob m)).
  destruct ((m_cob m =? can_id) && negb (m_task m)) eqn:A; cbn [fst snd].
  - destruct (m_ts m); cbn; repeat split; try reflexivity; intros; discriminate.
  - repeat split; try reflexivity; intros; discriminate.
Qed.

Theorem src_pdo_remote_request_eq w k m : nth_error (w_maps w) k = Some m ->
  w_sent (fst (step w (LRtr k))) =
  if src_pdo_remote_request_sends (m_enabled m) (m_rtr m) false then w_sent w ++ [(m_cob m, [], true)] else w_sent w.
Proof.
  intros Hk. rewrite (rtr_rule w k m Hk). unfold src_pdo_remote_request_sends.
  destruct (m_enabled m && m_rtr m); reflexivity.
Qed.

(* PdoMap.subscribe / Network.subscribe: the subscriber table grows by (COB-ID, this map) exactly when the translated
   code calls Network.subscribe and that call appends; nothing else changes *)
Theorem src_pdo_subscribe_eq w k m : nth_error (w_maps w) k = Some m ->
  fst (step w (LSubscribe k)) =
  if src_pdo_subscribe_calls (m_enabled m) false && src_net_subscribe_adds (has_sub (w_subs w) (m_cob m) k) false
  then {| w_maps := w_maps w; w_subs := w_subs w ++ [(m_cob m, k)]; w_sent := w_sent w; w_cblog := w_cblog w |}
  else w.
Proof.
  intros Hk. unfold step, with_map. rewrite Hk. unfold src_pdo_subscribe_calls, src_net_subscribe_adds.
  destruct (m_enabled m); cbn [andb]; [|reflexivity].
  destruct (has_sub (w_subs w) (m_cob m) k); reflexivity.
Qed.

(* PdoMap.transmit: exactly one data frame (COB-ID, current data) is handed to the bus, which delivers it *)
Theorem src_pdo_transmit_eq w k m ts : nth_error (w_maps w) k = Some m ->
  w_sent (fst (step w (LTransmit k ts))) =
  if src_pdo_transmit_sends false then w_sent w ++ [(m_cob m, m_data m, false)] else w_sent w.
Proof.
  intros Hk. unfold step, with_map. rewrite Hk. apply arrive_frame.
Qed.
