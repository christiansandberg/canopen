(* Proofs for C10 (Model/Net.v against Model/RefNet.v).

   The subscribers dict stands for the reference multimap through [abs]; each dict primitive is one
   multimap primitive under [abs].  The reference keeps an invariant of its own ([inv]: no duplicates,
   node callbacks only on their own ids and only while registered) which three facts maintain: a
   multimap may shrink, may gain callbacks that are [owned], and a node id may be re-assigned once no
   callback of its node object is left. *)
From Coq Require Import ZArith List Bool Lia.
From CV Require Import Base.Val Base.Bits Base.Bytes Base.Tys Gen.NetTables Model.Net Model.RefNet.
Import ListNotations.
Open Scope Z_scope.

Lemma hkind_eqb_spec : forall a b, hkind_eqb a b = true <-> a = b.
Proof.
  destruct a, b; cbn; try (split; intro H; try reflexivity; discriminate H).
  rewrite Z.eqb_eq. split; [intros ->; reflexivity | intros H; inversion H; reflexivity].
Qed.

Lemma nobj_eqb_spec : forall a b, nobj_eqb a b = true <-> a = b.
Proof.
  intros [u n l] [u' n' l']; unfold nobj_eqb; cbn.
  rewrite !andb_true_iff, !Z.eqb_eq, eqb_true_iff. split.
  - intros [[-> ->] ->]; reflexivity.
  - intros H; inversion H; auto.
Qed.

Lemma nobj_eqb_refl : forall o, nobj_eqb o o = true.
Proof. intros. apply nobj_eqb_spec. reflexivity. Qed.

Lemma handler_eqb_spec : forall a b, handler_eqb a b = true <-> a = b.
Proof.
  intros [x| |o k] [y| |o' k']; cbn; try (split; intro H; discriminate H).
  - rewrite Z.eqb_eq. split; [intros ->; reflexivity | intros H; inversion H; reflexivity].
  - split; reflexivity.
  - rewrite andb_true_iff, nobj_eqb_spec, hkind_eqb_spec.
    split; [intros [-> ->]; reflexivity | intros H; inversion H; auto].
Qed.

Lemma handler_eqb_refl : forall a, handler_eqb a a = true.
Proof. intros; apply handler_eqb_spec; reflexivity. Qed.

Lemma handler_eqb_neq : forall a b, handler_eqb a b = false <-> a <> b.
Proof. intros a b. exact (iff_false _ _ (handler_eqb_spec a b)). Qed.

Lemma hmem_spec : forall h l, hmem h l = true <-> In h l.
Proof.
  induction l as [|x r IH]; cbn.
  - split; [discriminate | tauto].
  - rewrite orb_true_iff, IH, handler_eqb_spec. split; intros [H|H]; auto.
Qed.

Lemma hmem_false : forall h l, hmem h l = false <-> ~ In h l.
Proof. intros h l. exact (iff_false _ _ (hmem_spec h l)). Qed.

Lemma filter_notin : forall h l, ~ In h l -> filter (fun x => negb (handler_eqb h x)) l = l.
Proof.
  induction l as [|x r IH]; cbn; intros H; auto.
  destruct (handler_eqb h x) eqn:E.
  - apply handler_eqb_spec in E. exfalso; apply H; auto.
  - cbn. rewrite IH; auto.
Qed.

(* list.remove deletes the only occurrence when there are no duplicates *)
Lemma remove_first_filter : forall h l, NoDup l ->
  remove_first h l = filter (fun x => negb (handler_eqb h x)) l.
Proof.
  induction l as [|x r IH]; cbn; intros H; auto.
  inversion H as [|? ? Hn Hr]; subst.
  destruct (handler_eqb h x) eqn:E; cbn.
  - apply handler_eqb_spec in E; subst. rewrite filter_notin; auto.
  - rewrite IH; auto.
Qed.

Lemma abs_subscribe : forall m c h x, abs (subscribe c h m) x = r_sub c h (abs m) x.
Proof.
  intros m c h x. unfold r_sub, upd.
  assert (abs (subscribe c h m) x =
          if hmem h (abs m c) then abs m x else if x =? c then abs m c ++ [h] else abs m x) as ->;
    [|destruct (hmem _ _); reflexivity].
  unfold abs. induction m as [|[c' l] r IH]; cbn.
  - destruct (x =? c); reflexivity.
  - destruct (Z.eqb_spec c c') as [->|N]; cbn.
    + destruct (hmem h l), (x =? c'); reflexivity.
    + destruct (Z.eqb_spec x c') as [->|]; [|exact IH].
      destruct (hmem h _); [reflexivity|]. destruct (Z.eqb_spec c' c); [congruence|reflexivity].
Qed.

Lemma abs_set_list : forall m c l l' x, lookup c m = Some l -> abs (set_list c l' m) x = upd (abs m) c l' x.
Proof.
  unfold upd, abs. induction m as [|[c' l0] r IH]; intros c l l' x; cbn; [discriminate|].
  destruct (Z.eqb_spec c c') as [->|N]; intros H; cbn.
  - destruct (x =? c'); reflexivity.
  - destruct (Z.eqb_spec x c') as [->|]; [|exact (IH _ _ _ _ H)]. destruct (Z.eqb_spec c' c); [congruence|reflexivity].
Qed.

Lemma abs_del_key : forall m c x, abs (del_key c m) x = upd (abs m) c [] x.
Proof.
  unfold upd, abs. induction m as [|[c' l0] r IH]; intros c x; cbn.
  - destruct (x =? c); reflexivity.
  - destruct (Z.eqb_spec c c') as [->|N]; cbn.
    + rewrite IH. destruct (x =? c'); reflexivity.
    + destruct (Z.eqb_spec x c') as [->|]; [|exact (IH _ _)]. destruct (Z.eqb_spec c' c); [congruence|reflexivity].
Qed.

Lemma subscribe_refines : forall m f c h, (forall x, abs m x = f x) ->
  forall x, abs (subscribe c h m) x = r_sub c h f x.
Proof.
  intros m f c h H x. rewrite abs_subscribe. unfold r_sub, upd. rewrite (H c).
  destruct (hmem h (f c)); [apply H|]. destruct (x =? c); [reflexivity|apply H].
Qed.

Lemma unsub1_refines : forall m f c h, (forall x, abs m x = f x) -> NoDup (f c) ->
  match unsubscribe c (Some h) m, r_unsub1 c h f with
  | Ok m', Some f' => forall x, abs m' x = f' x
  | Err _, None => True
  | _, _ => False
  end.
Proof.
  intros m f c h H Hnd. unfold unsubscribe, r_unsub1. pose proof (H c) as Hc. unfold abs in Hc.
  destruct (lookup c m) as [l|] eqn:El; rewrite <- Hc in *; [|exact I]. destruct (hmem h l); [|exact I].
  intros x. rewrite (abs_set_list _ _ _ _ _ El), remove_first_filter by exact Hnd.
  unfold upd. destruct (x =? c); [reflexivity|apply H].
Qed.

Lemma unsub_all_refines : forall m f c, (forall x, abs m x = f x) ->
  match unsubscribe c None m with
  | Ok m' => forall x, abs m' x = r_unsub_all c f x
  | Err _ => forall x, abs m x = r_unsub_all c f x
  | Abort _ => False
  end.
Proof.
  intros m f c H. unfold unsubscribe, r_unsub_all.
  destruct (lookup c m) as [l|] eqn:El; intros x; [rewrite abs_del_key|]; unfold upd;
    destruct (Z.eqb_spec x c) as [->|]; try apply H.
  - reflexivity.
  - unfold abs. rewrite El. reflexivity.
Qed.

Lemma r_sub_nodup : forall c h f, (forall x, NoDup (f x)) -> forall x, NoDup (r_sub c h f x).
Proof.
  intros c h f H x. unfold r_sub. destruct (hmem h (f c)) eqn:E; [apply H|].
  unfold upd. destruct (x =? c); [|apply H]. apply NoDup_snoc; [apply H|apply hmem_false, E].
Qed.

Lemma r_sub_in : forall c h f x y, In y (r_sub c h f x) <-> In y (f x) \/ (x = c /\ y = h).
Proof.
  intros c h f x y. unfold r_sub. destruct (hmem h (f c)) eqn:E.
  - apply hmem_spec in E. split; auto. intros [A|[-> ->]]; auto.
  - unfold upd. destruct (Z.eqb_spec x c) as [->|N].
    + rewrite in_app_iff. cbn. intuition.
    + intuition.
Qed.

Lemma r_sub_all_nodup : forall chs f, (forall x, NoDup (f x)) -> forall x, NoDup (r_sub_all chs f x).
Proof.
  unfold r_sub_all. induction chs as [|[c h] r IH]; intros f H x; cbn; auto.
  apply IH. apply r_sub_nodup; auto.
Qed.

Lemma r_sub_all_in : forall chs f x y,
  In y (r_sub_all chs f x) <-> In y (f x) \/ In (x, y) chs.
Proof.
  unfold r_sub_all. induction chs as [|[c h] r IH]; intros f x y; cbn.
  - tauto.
  - rewrite IH, r_sub_in. split.
    + intros [[A|[-> ->]]|A]; auto.
    + intros [A|[A|A]]; auto. inversion A; subst; auto.
Qed.

Lemma r_unsub1_nodup : forall c h f f', r_unsub1 c h f = Some f' ->
  (forall x, NoDup (f x)) -> forall x, NoDup (f' x).
Proof.
  unfold r_unsub1. intros c h f f' H Hn x. destruct (hmem h (f c)); inversion H; subst.
  unfold upd. destruct (x =? c); auto. apply NoDup_filter; auto.
Qed.

Lemma r_unsub1_in : forall c h f f', r_unsub1 c h f = Some f' ->
  forall x y, In y (f' x) <-> In y (f x) /\ ~ (x = c /\ y = h).
Proof.
  unfold r_unsub1. intros c h f f' H x y. destruct (hmem h (f c)); inversion H; subst.
  unfold upd. destruct (Z.eqb_spec x c) as [->|N]; [rewrite filter_In, negb_true_iff, handler_eqb_neq|]; intuition congruence.
Qed.

Lemma r_unsub_seq_spec : forall chs f f' b, r_unsub_seq chs f = (f', b) -> (forall x, NoDup (f x)) ->
  (forall x, NoDup (f' x)) /\ (forall x y, In y (f' x) -> In y (f x)) /\
  (b = true -> forall c h, In (c, h) chs -> ~ In h (f' c)).
Proof.
  induction chs as [|[c h] r IH]; intros f f' b H Hn; cbn in H.
  - injection H as <- <-. repeat split; auto.
  - destruct (r_unsub1 c h f) as [f1|] eqn:E.
    + destruct (IH _ _ _ H (r_unsub1_nodup _ _ _ _ E Hn)) as (N & S & R). split; [exact N|].
      assert (forall x y, In y (f' x) -> In y (f x) /\ ~ (x = c /\ y = h)) as S1
        by (intros x y Hy; apply (r_unsub1_in _ _ _ _ E), S, Hy).
      split; [intros x y Hy; apply (S1 x y Hy)|].
      intros Hb c0 h0 [[= <- <-]|Hin]; [|exact (R Hb _ _ Hin)]. intros Hy. apply S1 in Hy. tauto.
    + injection H as <- <-. repeat split; auto. discriminate.
Qed.

Lemma extras_ref : forall txs o k, extras_from o k txs = ref_extras o k txs.
Proof. induction txs as [|t r IH]; intros; cbn; [reflexivity|]. rewrite IH. reflexivity. Qed.

Lemma node_handlers_ref : forall txs o, node_handlers txs o = ref_handlers txs o.
Proof. intros. unfold node_handlers, ref_handlers. rewrite extras_ref. destruct (o_local o); reflexivity. Qed.

(* as [Forall]: going through the concrete list by [inversion] of memberships would simplify
   [1792 + o_nid o] and its like into matches over the digits of the node id *)
Lemma ref_extras_own : forall txs o k, Forall (fun ch => exists k', snd ch = HNode o k') (ref_extras o k txs).
Proof. induction txs as [|t r IH]; intros o k; constructor; [eexists; reflexivity|apply IH]. Qed.

Lemma ref_handlers_own : forall txs o, Forall (fun ch => exists k, snd ch = HNode o k) (ref_handlers txs o).
Proof.
  intros txs o. unfold ref_handlers. destruct (o_local o);
    repeat first [constructor | eexists; reflexivity | apply Forall_app; split; [apply ref_extras_own|]].
Qed.

Lemma ref_extras_app : forall txs o k tx,
  ref_extras o k (txs ++ [tx]) = ref_extras o k txs ++ [(tx, HNode o (KSdoExtra (k + Z.of_nat (length txs))))].
Proof.
  induction txs as [|t r IH]; intros o k tx; cbn [ref_extras app].
  - cbn. rewrite Z.add_0_r. reflexivity.
  - rewrite IH. cbn [length]. rewrite Nat2Z.inj_succ.
    replace (k + 1 + Z.of_nat (length r)) with (k + Z.succ (Z.of_nat (length r))) by lia. reflexivity.
Qed.

Lemma ref_handlers_grow : forall txs tx o c h,
  In (c, h) (ref_handlers txs o) -> In (c, h) (ref_handlers (txs ++ [tx]) o).
Proof.
  intros txs tx o c h. unfold ref_handlers. destruct (o_local o); auto.
  rewrite ref_extras_app. intros H. destruct H as [H|H]; [left; exact H|right].
  rewrite in_app_iff in H. rewrite !in_app_iff. tauto.
Qed.

Lemma ref_handlers_new : forall txs tx o, o_local o = false ->
  In (tx, HNode o (KSdoExtra (Z.of_nat (length txs) + 1))) (ref_handlers (txs ++ [tx]) o).
Proof.
  intros txs tx o Hl. unfold ref_handlers. rewrite Hl, ref_extras_app. right.
  rewrite !in_app_iff. left. right. left. do 3 f_equal. lia.
Qed.

Lemma txs_of_add_tx : forall cm o tx x,
  txs_of x (add_tx o tx cm) = if nobj_eqb x o then txs_of o cm ++ [tx] else txs_of x cm.
Proof.
  induction cm as [|[o' l] r IH]; intros o tx x; cbn.
  - destruct (nobj_eqb x o); reflexivity.
  - destruct (nobj_eqb o o') eqn:E; cbn.
    + apply nobj_eqb_spec in E; subst o'. destruct (nobj_eqb x o); reflexivity.
    + rewrite IH. destruct (nobj_eqb x o') eqn:E2; destruct (nobj_eqb x o) eqn:E3; auto.
      apply nobj_eqb_spec in E2, E3. subst. rewrite nobj_eqb_refl in E. discriminate.
Qed.

Lemma lookup_set_node : forall ns n o x,
  lookup_node x (set_node n o ns) = if x =? n then Some o else lookup_node x ns.
Proof.
  induction ns as [|[n' o'] r IH]; intros n o x; cbn.
  - reflexivity.
  - destruct (n =? n') eqn:E; cbn; [|rewrite IH]; destruct (x =? n') eqn:E2; destruct (x =? n) eqn:E3; auto; lia.
Qed.

Lemma lookup_del_node : forall ns n x,
  lookup_node x (del_node n ns) = if x =? n then None else lookup_node x ns.
Proof.
  induction ns as [|[n' o'] r IH]; intros n x; cbn.
  - destruct (x =? n); reflexivity.
  - destruct (n =? n') eqn:E; cbn; rewrite IH; destruct (x =? n') eqn:E2; destruct (x =? n) eqn:E3; auto; lia.
Qed.

Lemma associate_refines : forall chs m f, (forall x, abs m x = f x) ->
  forall x, abs (fold_left (fun m ch => subscribe (fst ch) (snd ch) m) chs m) x = r_sub_all chs f x.
Proof.
  unfold r_sub_all. induction chs as [|[c h] r IH]; intros m f H x; cbn; auto.
  apply IH. intro. apply subscribe_refines; auto.
Qed.

Definition res_ok {A} (r : res A) : bool := match r with Ok _ => true | _ => false end.

Lemma unsub_seq_refines : forall chs m f, (forall x, abs m x = f x) -> (forall x, NoDup (f x)) ->
  (forall x, abs (fst (unsub_seq chs m)) x = fst (r_unsub_seq chs f) x) /\
  res_ok (snd (unsub_seq chs m)) = snd (r_unsub_seq chs f).
Proof.
  induction chs as [|[c h] r IH]; intros m f H Hn; cbn; auto.
  pose proof (unsub1_refines m f c h H (Hn c)) as U.
  destruct (unsubscribe c (Some h) m) as [m'|k|k]; destruct (r_unsub1 c h f) as [f'|] eqn:E;
    try contradiction; cbn; auto.
  apply IH; auto. eapply r_unsub1_nodup; eauto.
Qed.

Lemma land_not_127 : forall a, Z.land a (Z.lnot 127) = a - a mod 128.
Proof.
  intros. rewrite <- Z.ldiff_land. change 127 with (Z.ones 7).
  rewrite Z.ldiff_ones_r, Z.shiftl_mul_pow2, Z.shiftr_div_pow2 by lia.
  change (2 ^ 7) with 128. pose proof (Z.div_mod a 128). lia.
Qed.

Definition aligned (s : Z) : bool := s mod 128 =? 0.

(* the arithmetic behind the bit masks: id = service + n with the service a multiple of 128 *)
Lemma mod128_split : forall id s, s mod 128 = 0 ->
  (1 <= id - s <= 127 <-> id mod 128 <> 0 /\ id - id mod 128 = s).
Proof. intros id s Hs. Z.to_euclidean_division_equations. lia. Qed.

Lemma names_from_spec : forall svcs, forallb aligned svcs = true -> forall id,
  names_from svcs id =
  if negb (id mod 128 =? 0) && zmem (id - id mod 128) svcs then Some (id mod 128) else None.
Proof.
  induction svcs as [|s r IH]; intros Hal id; cbn.
  - rewrite andb_false_r. reflexivity.
  - cbn in Hal. apply andb_true_iff in Hal as [Hs Hr]. apply Z.eqb_eq in Hs. rewrite (IH Hr).
    pose proof (mod128_split id s Hs) as M.
    destruct ((1 <=? id - s) && (id - s <=? 127)) eqn:E1;
      destruct (Z.eqb_spec (id mod 128) 0); destruct (Z.eqb_spec (id - id mod 128) s); cbn; try reflexivity; try lia.
    f_equal. lia.
Qed.

Lemma services_aligned : forallb aligned SERVICES = true.
Proof. vm_compute. reflexivity. Qed.

Lemma scan_step_ref : forall found id, scan_step found id = ref_scan_step found id.
Proof.
  intros. unfold scan_step, ref_scan_step, names.
  rewrite names_from_spec by apply services_aligned.
  rewrite land_127, land_not_127.
  destruct (id mod 128 =? 0); destruct (zmem (id - id mod 128) SERVICES); cbn;
    destruct (zmem (id mod 128) found); reflexivity.
Qed.

Lemma scan_ref : forall ids, scan ids = ref_scan ids.
Proof.
  intros ids. unfold scan, scan_from, ref_scan. generalize (@nil Z).
  induction ids as [|i r IH]; intros found; cbn; [reflexivity|]. rewrite scan_step_ref. apply IH.
Qed.

(* the node id named by a COB-ID: declarative form *)
Definition names_node (id n : Z) : Prop :=
  1 <= n <= 127 /\ exists svc, In svc SERVICES /\ id = svc + n.

Lemma names_iff : forall id n, names id = Some n <-> names_node id n.
Proof.
  intros id n. unfold names, names_node. rewrite names_from_spec by apply services_aligned. split.
  - destruct (Z.eqb_spec (id mod 128) 0) as [|Nz]; [discriminate|].
    destruct (zmem _ SERVICES) eqn:E; [|discriminate]. apply zmem_In in E. intros [= <-].
    pose proof (Z.mod_pos_bound id 128). split; [lia|]. exists (id - id mod 128). split; [exact E|lia].
  - intros (Hn & svc & Hin & Heq).
    pose proof services_aligned as Hal. rewrite forallb_forall in Hal. pose proof (Hal _ Hin) as Hs. apply Z.eqb_eq in Hs.
    destruct (proj1 (mod128_split id svc Hs)) as [Nz D]; [lia|].
    rewrite (proj2 (Z.eqb_neq _ _) Nz), D, (proj2 (zmem_In _ _) Hin). cbn. f_equal. lia.
Qed.

Local Arguments names : simpl never.

Lemma ref_scan_step_spec : forall found id,
  (exists l, ref_scan_step found id = found ++ l) /\
  (NoDup found -> NoDup (ref_scan_step found id)) /\
  (forall n, In n (ref_scan_step found id) <-> In n found \/ names id = Some n).
Proof.
  intros found id. unfold ref_scan_step. destruct (names id) as [m|]; [destruct (zmem m found) eqn:E|].
  - apply zmem_In in E. split; [exists []; symmetry; apply app_nil_r|]. split; [auto|].
    intros n. split; [auto|]. intros [H|[= <-]]; assumption.
  - split; [exists [m]; reflexivity|]. split.
    + intros H. apply NoDup_snoc; [exact H|]. rewrite <- zmem_In, E. discriminate.
    + intros n. rewrite in_app_iff. cbn. split; [intros [H|[<-|[]]]; auto | intros [H|[= <-]]; auto].
  - split; [exists []; symmetry; apply app_nil_r|]. split; [auto|].
    intros n. split; [auto|]. intros [H|H]; [exact H|discriminate H].
Qed.

Lemma ref_scan_prefix : forall ids found, exists l, fold_left ref_scan_step ids found = found ++ l.
Proof.
  induction ids as [|i r IH]; intros found; cbn.
  - exists []. rewrite app_nil_r. reflexivity.
  - destruct (proj1 (ref_scan_step_spec found i)) as [l1 E1]. destruct (IH (ref_scan_step found i)) as [l2 E2].
    exists (l1 ++ l2). rewrite E2, E1, app_assoc. reflexivity.
Qed.

Lemma ref_scan_nodup : forall ids found, NoDup found -> NoDup (fold_left ref_scan_step ids found).
Proof. induction ids as [|i r IH]; intros found H; cbn; [exact H|]. apply IH, ref_scan_step_spec, H. Qed.

Lemma ref_scan_in : forall ids found n,
  In n (fold_left ref_scan_step ids found) <-> In n found \/ exists id, In id ids /\ names id = Some n.
Proof.
  induction ids as [|i r IH]; intros found n; cbn.
  - split; auto. intros [A|[id [[] _]]]; auto.
  - rewrite IH, (proj2 (proj2 (ref_scan_step_spec found i))). split.
    + intros [[A|A]|(id & A & B)]; [left; exact A|right; exists i; auto|right; exists id; auto].
    + intros [A|(id & [<-|A] & B)]; [left; left; exact A|left; right; exact B|right; exists id; auto].
Qed.

Lemma scanner_spec : forall ids : list Z,
  NoDup (scan ids) /\
  (forall n, In n (scan ids) <-> exists id, In id ids /\ names_node id n) /\
  (forall pre id post n, ids = pre ++ id :: post -> names_node id n ->
     (forall id', In id' pre -> ~ names_node id' n) ->
     exists rest, scan ids = scan pre ++ n :: rest).
Proof.
  intros ids. rewrite scan_ref. unfold ref_scan. repeat split.
  - apply ref_scan_nodup. constructor.
  - rewrite ref_scan_in. intros [[]|[id [A B]]]. exists id; split; auto. apply names_iff; auto.
  - intros [id [A B]]. apply ref_scan_in. right. exists id; split; auto. apply names_iff; auto.
  - intros pre id post n -> Hn Hpre. rewrite scan_ref. unfold ref_scan.
    rewrite fold_left_app. cbn.
    assert (Hnot : ~ In n (fold_left ref_scan_step pre [])).
    { rewrite ref_scan_in. intros [[]|[id' [A B]]]. apply (Hpre id' A). apply names_iff; auto. }
    unfold ref_scan_step at 2. apply names_iff in Hn. rewrite Hn.
    destruct (zmem n (fold_left ref_scan_step pre [])) eqn:E.
    + apply zmem_In in E. contradiction.
    + destruct (ref_scan_prefix post (fold_left ref_scan_step pre [] ++ [n])) as [l Hl].
      exists l. rewrite Hl, <- app_assoc. reflexivity.
Qed.

Record sim (s : net) (r : rnet) : Prop := {
  sim_map : forall x, abs (subs s) x = r_map r x;
  sim_nodes : forall n, lookup_node n (nodes s) = r_nodes r n;
  sim_scan : scanned s = r_scan r;
  sim_chans : forall o, txs_of o (chans s) = r_chans r o }.

(* a node callback is only ever subscribed to its own COB-ID (for an SDO channel: that channel's tx
   id), and only while its node object is the one registered under its node id *)
Definition owned (r : rnet) (c : Z) (h : handler) : Prop :=
  match h with
  | HNode o k => r_nodes r (o_nid o) = Some o /\ In (c, h) (ref_handlers (r_chans r o) o)
  | _ => True
  end.

(* invariant of the reference; it does not mention r_scan *)
Definition inv (r : rnet) : Prop :=
  (forall c, NoDup (r_map r c)) /\ (forall c h, In h (r_map r c) -> owned r c h).

Lemma inv_shrink : forall r f, inv r -> (forall x, NoDup (f x)) ->
  (forall x y, In y (f x) -> In y (r_map r x)) -> inv (with_map r f).
Proof. intros r f [_ O] N S. split; [exact N|]. intros c h H. exact (O c h (S c h H)). Qed.

Lemma inv_grow : forall r chs, inv r -> (forall c h, In (c, h) chs -> owned r c h) ->
  inv (with_map r (r_sub_all chs (r_map r))).
Proof.
  intros r chs [N O] H. split; [apply r_sub_all_nodup, N|].
  intros c h Hin. apply r_sub_all_in in Hin as [Hin|Hin]; [exact (O c h Hin)|exact (H c h Hin)].
Qed.

Lemma inv_set_node : forall r n v, inv r ->
  (forall old, r_nodes r n = Some old -> forall c k, ~ In (HNode old k) (r_map r c)) ->
  inv {| r_map := r_map r; r_nodes := upd (r_nodes r) n v; r_scan := r_scan r; r_chans := r_chans r |}.
Proof.
  intros r n v [N O] H. split; [exact N|]. intros c [u| |o k] Hin; try exact I.
  destruct (O c _ Hin) as [A B]. split; [|exact B]. cbn. unfold upd.
  destruct (Z.eqb_spec (o_nid o) n) as [E|]; [|exact A]. rewrite E in A. destruct (H o A c k Hin).
Qed.

Lemma handlers_owned : forall r o, r_nodes r (o_nid o) = Some o ->
  forall c h, In (c, h) (ref_handlers (r_chans r o) o) -> owned r c h.
Proof.
  intros r o R c h Hin. destruct (proj1 (Forall_forall _ _) (ref_handlers_own _ o) _ Hin) as [k E].
  cbn in E. subst h. split; assumption.
Qed.

Lemma registered_ref : forall s r o, sim s r -> registered o s = ref_registered o r.
Proof. intros s r o S. unfold registered, ref_registered. rewrite (sim_nodes _ _ S). reflexivity. Qed.

Lemma registered_some : forall r o, ref_registered o r = true -> r_nodes r (o_nid o) = Some o.
Proof.
  unfold ref_registered. intros r o H. destruct (r_nodes r (o_nid o)) as [o'|]; [|discriminate].
  apply nobj_eqb_spec in H. subst o'. reflexivity.
Qed.

Lemma init_sim : sim init_net ref_init.
Proof.
  constructor; cbn; auto.
  intros x. unfold abs. cbn. destruct (x =? LSS_RX_COBID); reflexivity.
Qed.

Lemma init_inv : inv ref_init.
Proof.
  split; cbn; intros c; destruct (c =? LSS_RX_COBID).
  - repeat constructor. intros [].
  - constructor.
  - intros h [<-|[]]. exact I.
  - intros h [].
Qed.

Definition sim_step (x : net * res (list delivery)) (y : rnet * list delivery) : Prop :=
  sim (fst x) (fst y) /\ inv (fst y) /\ log_of (snd x) = snd y.

Lemma sim_sub : forall c u s r, sim s r -> inv r -> sim_step (step (OSub c u) s) (ref_step (OSub c u) r).
Proof.
  intros c u s r S I. split; [|split; [|reflexivity]].
  - split; try apply S. apply subscribe_refines, S.
  - apply (inv_grow r [(c, HUser u)] I). intros ? ? [[= <- <-]|[]]. exact Logic.I.
Qed.

Lemma sim_unsub : forall c h s r, sim s r -> inv r -> sim_step (step (OUnsub c h) s) (ref_step (OUnsub c h) r).
Proof.
  intros c [h|] s r S I; cbn [step ref_step].
  - pose proof (unsub1_refines (subs s) (r_map r) c h (sim_map _ _ S) (proj1 I c)) as U.
    destruct (unsubscribe c (Some h) (subs s)) as [m'|k|k]; destruct (r_unsub1 c h (r_map r)) as [f'|] eqn:E;
      try contradiction; [|split; [exact S|split; [exact I|reflexivity]]].
    split; [split; try apply S; exact U|split; [|reflexivity]].
    apply (inv_shrink r f' I (r_unsub1_nodup _ _ _ _ E (proj1 I))).
    intros x y H. apply (r_unsub1_in _ _ _ _ E) in H. tauto.
  - pose proof (unsub_all_refines (subs s) (r_map r) c (sim_map _ _ S)) as U.
    assert (inv (with_map r (r_unsub_all c (r_map r)))) as I'.
    { apply (inv_shrink r _ I); unfold r_unsub_all, upd; intros x; destruct (x =? c); try apply (proj1 I);
        [constructor|intros y []|auto]. }
    destruct (unsubscribe c None (subs s)); [..|contradiction];
      (split; [split; try apply S; exact U|split; [exact I'|reflexivity]]).
Qed.

(* detaching whatever is registered under n: remove_network against the reference *)
Lemma detach_sim : forall n s r, sim s r -> inv r ->
  let cm := match lookup_node n (nodes s) with
            | Some old => unsub_seq (node_handlers (txs_of old (chans s)) old) (subs s)
            | None => (subs s, Ok tt)
            end in
  let rm := ref_detach n r in
  (forall x, abs (fst cm) x = fst rm x) /\ res_ok (snd cm) = snd rm /\ inv (with_map r (fst rm)) /\
  (snd rm = true -> forall old, r_nodes r n = Some old -> forall c k, ~ In (HNode old k) (fst rm c)).
Proof.
  intros n s r S I. unfold ref_detach. rewrite (sim_nodes _ _ S). destruct (r_nodes r n) as [old|]; cbn zeta.
  - rewrite node_handlers_ref, (sim_chans _ _ S).
    destruct (unsub_seq_refines (ref_handlers (r_chans r old) old) _ _ (sim_map _ _ S) (proj1 I)) as [A B].
    destruct (r_unsub_seq _ (r_map r)) as [f1 ok] eqn:E.
    destruct (r_unsub_seq_spec _ _ _ _ E (proj1 I)) as (N & Sh & R). cbn [fst snd] in *.
    split; [exact A|]. split; [exact B|]. split; [exact (inv_shrink r f1 I N Sh)|].
    intros Hok old' [= <-] c k Hin. destruct (proj2 I c _ (Sh c _ Hin)) as [_ Hh]. exact (R Hok c _ Hh Hin).
  - split; [apply S|]. split; [reflexivity|]. split; [exact I|]. discriminate.
Qed.

Lemma sim_add : forall o s r, sim s r -> inv r -> sim_step (step (OAdd o) s) (ref_step (OAdd o) r).
Proof.
  intros o s r S I. cbn [step ref_step]. unfold setitem. destruct (detach_sim (o_nid o) s r S I) as (A & B & I1 & D).
  destruct (match lookup_node _ _ with Some _ => _ | None => _ end) as [m1 st]. destruct (ref_detach _ r) as [f1 ok].
  cbn [fst snd] in *.
  destruct st; cbn in B; subst ok; cbn [lift_unit fst snd]; [|split; [split; try apply S; exact A|split; [exact I1|reflexivity]]..].
  split; [|split; [|reflexivity]].
  - split; cbn [subs nodes scanned chans fst]; try apply S.
    + unfold associate. rewrite node_handlers_ref, (sim_chans _ _ S). apply associate_refines, A.
    + intros x. rewrite lookup_set_node. unfold upd. rewrite (sim_nodes _ _ S). reflexivity.
  - pose proof (inv_set_node _ (o_nid o) (Some o) I1 (D eq_refl)) as I2.
    apply (inv_grow _ (ref_handlers (r_chans r o) o)) in I2; [exact I2|].
    intros c h Hin. apply (handlers_owned _ o); [|exact Hin]. cbn. unfold upd. rewrite Z.eqb_refl. reflexivity.
Qed.

Lemma sim_del : forall n s r, sim s r -> inv r -> sim_step (step (ODel n) s) (ref_step (ODel n) r).
Proof.
  intros n s r S I. cbn [step ref_step]. unfold delitem. destruct (detach_sim n s r S I) as (A & B & I1 & D).
  pose proof (fun H => inv_set_node _ n None I1 (D H)) as I2. clear D.
  rewrite (sim_nodes _ _ S) in *. destruct (r_nodes r n) as [old|]; [|split; [exact S|split; [exact I|reflexivity]]].
  destruct (unsub_seq _ _) as [m1 st]. destruct (ref_detach _ r) as [f1 ok]. cbn [fst snd] in *.
  destruct st; cbn in B; subst ok; cbn [lift_unit fst snd]; [|split; [split; try apply S; exact A|split; [exact I1|reflexivity]]..].
  split; [|split; [exact (I2 eq_refl)|reflexivity]].
  split; cbn [subs nodes scanned chans fst]; try apply S; [exact A|].
  intros x. rewrite lookup_del_node. unfold upd. rewrite (sim_nodes _ _ S). reflexivity.
Qed.

Lemma notify_snd : forall c data ts s,
  snd (notify c data ts s) = map (fun h => (h, c, data, ts)) (abs (subs s) c).
Proof. intros. cbn. unfold abs. destruct (lookup c (subs s)); reflexivity. Qed.

Lemma notify_log : forall s r c data ts, sim s r -> snd (notify c data ts s) = snd (ref_deliver c data ts r).
Proof. intros s r c data ts S. rewrite notify_snd, (sim_map _ _ S). reflexivity. Qed.

Lemma sim_notify : forall c data ts s r, sim s r -> inv r ->
  sim_step (step (ONotify c data ts) s) (ref_step (ONotify c data ts) r).
Proof.
  intros c data ts s r S I. split; [|split; [exact I|apply notify_log, S]].
  split; try apply S. cbn. rewrite scan_step_ref, (sim_scan _ _ S). reflexivity.
Qed.

Lemma sim_add_sdo : forall o rx tx s r, sim s r -> inv r ->
  sim_step (step (OAddSdo o rx tx) s) (ref_step (OAddSdo o rx tx) r).
Proof.
  intros o rx tx s r S I. cbn [step ref_step]. unfold add_sdo.
  destruct (o_local o) eqn:El; [split; [exact S|split; [exact I|reflexivity]]|].
  rewrite (registered_ref s r o S), (sim_chans _ _ S). split; [|split; [|reflexivity]].
  - split; cbn [subs nodes scanned chans fst]; try apply S.
    + destruct (ref_registered o r); [apply subscribe_refines|]; apply S.
    + intros x. rewrite txs_of_add_tx, !(sim_chans _ _ S). reflexivity.
  - (* the new channel first, which only adds to what o may be subscribed to; then its callback *)
    set (r1 := {| r_map := r_map r; r_nodes := r_nodes r; r_scan := r_scan r;
                  r_chans := fun x => if nobj_eqb x o then r_chans r o ++ [tx] else r_chans r x |}).
    assert (inv r1) as I1.
    { split; [exact (proj1 I)|]. intros c [u| |o' k] Hin; try exact Logic.I.
      destruct (proj2 I c _ Hin) as [A B]. split; [exact A|]. cbn.
      destruct (nobj_eqb o' o) eqn:E; [|exact B]. apply nobj_eqb_spec in E. subst o'. apply ref_handlers_grow, B. }
    cbn [fst]. destruct (ref_registered o r) eqn:Er; [|exact I1].
    apply (inv_grow r1 [(tx, _)] I1). intros ? ? [[= <- <-]|[]]. split; [exact (registered_some _ _ Er)|].
    cbn. rewrite nobj_eqb_refl. apply ref_handlers_new, El.
Qed.

Lemma sim_reassoc : forall o s r, sim s r -> inv r -> sim_step (step (OReassoc o) s) (ref_step (OReassoc o) r).
Proof.
  intros o s r S I. cbn [step ref_step]. rewrite (registered_ref s r o S).
  destruct (ref_registered o r) eqn:Er; [|split; [exact S|split; [exact I|reflexivity]]].
  split; [|split; [|reflexivity]].
  - split; try apply S. unfold associate. cbn. rewrite node_handlers_ref, (sim_chans _ _ S). apply associate_refines, S.
  - apply (inv_grow r _ I), handlers_owned, registered_some, Er.
Qed.

Lemma step_sim : forall o s r, sim s r -> inv r -> sim_step (step o s) (ref_step o r).
Proof.
  intros o s r S I. destruct o.
  - apply sim_sub; assumption.
  - apply sim_unsub; assumption.
  - apply sim_add; assumption.
  - apply sim_del; assumption.
  - apply sim_notify; assumption.
  - cbn [step ref_step]. unfold listener. destruct (f_err f || f_remote f).
    + split; [exact S|split; [exact I|reflexivity]].
    + apply (sim_notify (f_id f) (f_data f) (f_ts f)); assumption.
  - split; [split; try apply S; reflexivity|split; [exact I|reflexivity]].
  - apply sim_add_sdo; assumption.
  - apply sim_reassoc; assumption.
  - split; [exact S|split; [exact I|reflexivity]].
  - split; [exact S|split; [exact I|reflexivity]].
Qed.

Lemma run_sim : forall ops s r, sim s r -> inv r ->
  sim (fst (run_ops ops s)) (fst (ref_run ops r)) /\ inv (fst (ref_run ops r)) /\
  map log_of (snd (run_ops ops s)) = snd (ref_run ops r).
Proof.
  induction ops as [|o rest IH]; intros s r S I; cbn.
  - auto.
  - destruct (step_sim o s r S I) as [S1 [I1 L1]].
    destruct (step o s) as [s1 x] eqn:E1. destruct (ref_step o r) as [r1 y] eqn:E2. cbn in S1, I1, L1.
    destruct (IH s1 r1 S1 I1) as [S2 [I2 L2]].
    destruct (run_ops rest s1) as [s2 xs] eqn:E3. destruct (ref_run rest r1) as [r2 ys] eqn:E4.
    cbn in *. split; [|split]; auto. rewrite L1, L2. reflexivity.
Qed.

Lemma dispatch_refines : forall ops : list op,
  map log_of (snd (run_ops ops init_net)) = snd (ref_run ops ref_init) /\
  (forall c, abs (subs (fst (run_ops ops init_net))) c = r_map (fst (ref_run ops ref_init)) c) /\
  (forall c, NoDup (r_map (fst (ref_run ops ref_init)) c)).
Proof.
  intros ops. destruct (run_sim ops init_net ref_init init_sim init_inv) as [S [I L]].
  split; [exact L|]. split; [apply S|apply I].
Qed.

(* what one notify delivers in a state reached by any history: exactly the reference list, mapped *)
Lemma notify_delivers : forall ops c data ts,
  snd (notify c data ts (fst (run_ops ops init_net))) =
  map (fun h => (h, c, data, ts)) (r_map (fst (ref_run ops ref_init)) c).
Proof. intros ops c data ts. exact (notify_log _ _ c data ts (proj1 (run_sim ops _ _ init_sim init_inv))). Qed.

Lemma subscribe_idempotent : forall c h m, subscribe c h (subscribe c h m) = subscribe c h m.
Proof.
  induction m as [|[c' l] r IH]; cbn.
  - rewrite Z.eqb_refl. cbn. rewrite handler_eqb_refl. reflexivity.
  - destruct (c =? c') eqn:E; cbn; rewrite E; [|rewrite IH; reflexivity].
    destruct (hmem h l) eqn:Em; [rewrite Em; reflexivity|].
    replace (hmem h (l ++ [h])) with true; [reflexivity|]. symmetry. apply hmem_spec, in_or_app. right; left; reflexivity.
Qed.

Lemma sim_unregistered : forall s r old, sim s r -> inv r ->
  lookup_node (o_nid old) (nodes s) <> Some old -> forall c k, ~ In (HNode old k) (abs (subs s) c).
Proof.
  intros s r old S I Hno c k Hin. rewrite (sim_map _ _ S) in Hin. destruct (proj2 I c _ Hin) as [A _].
  rewrite <- (sim_nodes _ _ S) in A. contradiction.
Qed.

Lemma step_log : forall o s h c d t, In (h, c, d, t) (log_of (snd (step o s))) -> In h (abs (subs s) c).
Proof.
  assert (forall s c0 data ts h c d t, In (h, c, d, t) (snd (notify c0 data ts s)) -> In h (abs (subs s) c)) as N.
  { intros s c0 data ts h c d t. rewrite notify_snd, in_map_iff. intros (h' & [= <- <- <- <-] & Hh). exact Hh. }
  intros o s h c d t. destruct o; cbn [step].
  - intros [].
  - destruct (unsubscribe _ _ _); intros [].
  - destruct (setitem o s) as [s' [u|k|k]]; intros [].
  - destruct (delitem n s) as [s' [u|k|k]]; intros [].
  - apply N.
  - unfold listener. destruct (f_err f || f_remote f); [intros []|apply N].
  - intros [].
  - destruct (add_sdo o rx tx s) as [s' [u|k|k]]; intros [].
  - destruct (registered o s); intros [].
  - intros [].
  - intros [].
Qed.

Lemma step_nodes : forall o s,
  nodes (fst (step o s)) =
  if res_ok (snd (step o s)) then
    match o with
    | OAdd o' => set_node (o_nid o') o' (nodes s)
    | ODel n => del_node n (nodes s)
    | _ => nodes s
    end
  else nodes s.
Proof.
  intros o s. destruct o; cbn [step]; try reflexivity.
  - destruct (unsubscribe c h (subs s)); reflexivity.
  - unfold setitem. destruct (match lookup_node _ _ with Some _ => _ | None => _ end) as [m1 [u|k|k]]; reflexivity.
  - unfold delitem. destruct (lookup_node n (nodes s)) as [old|]; [|reflexivity].
    destruct (unsub_seq _ _) as [m1 [u|k|k]]; reflexivity.
  - unfold listener. destruct (f_err f || f_remote f); reflexivity.
  - unfold add_sdo. destruct (o_local o); reflexivity.
  - destruct (registered o s); reflexivity.
Qed.

Lemma step_keeps_unregistered : forall o s old,
  lookup_node (o_nid old) (nodes s) <> Some old -> o <> OAdd old ->
  lookup_node (o_nid old) (nodes (fst (step o s))) <> Some old.
Proof.
  intros o s old Hno Hne. rewrite step_nodes. destruct (res_ok _); [|exact Hno]. destruct o; try exact Hno.
  - rewrite lookup_set_node. destruct (o_nid old =? o_nid o); [|exact Hno]. intros [= ->]. apply Hne; reflexivity.
  - rewrite lookup_del_node. destruct (o_nid old =? n); [discriminate|exact Hno].
Qed.

Lemma silent_general : forall ops s r old, sim s r -> inv r ->
  lookup_node (o_nid old) (nodes s) <> Some old ->
  Forall (fun o => o <> OAdd old) ops ->
  forall k c d t, ~ In (HNode old k, c, d, t) (concat (map log_of (snd (run_ops ops s)))).
Proof.
  induction ops as [|o rest IH]; intros s r old S I Hno Hall k c d t; cbn.
  - auto.
  - inversion Hall as [|? ? Ho Hrest]; subst.
    pose proof (fun H => sim_unregistered s r old S I Hno c k (step_log o s _ c d t H)) as H1.
    pose proof (step_keeps_unregistered o s old Hno Ho) as H2.
    destruct (step_sim o s r S I) as [S1 [I1 _]].
    destruct (step o s) as [s1 x] eqn:E1. cbn in *.
    pose proof (IH s1 _ old S1 I1 H2 Hrest k c d t) as H3.
    destruct (run_ops rest s1) as [s2 xs] eqn:E3. cbn in *.
    rewrite in_app_iff. tauto.
Qed.

Lemma run_ops_app : forall a b s,
  run_ops (a ++ b) s =
  (fst (run_ops b (fst (run_ops a s))), snd (run_ops a s) ++ snd (run_ops b (fst (run_ops a s)))).
Proof.
  induction a as [|o r IH]; intros b s; cbn.
  - destruct (run_ops b s); reflexivity.
  - destruct (step o s) as [s1 x]. rewrite IH.
    destruct (run_ops r s1) as [s2 xs]. cbn. reflexivity.
Qed.

(* invariant form: in a state reached by ANY history, a node object that is not the one
   registered under its id has no callback in any list *)
Lemma unregistered_not_subscribed : forall ops old,
  let s := fst (run_ops ops init_net) in
  lookup_node (o_nid old) (nodes s) <> Some old ->
  forall c k, ~ In (HNode old k) (abs (subs s) c).
Proof.
  intros ops old. destruct (run_sim ops init_net ref_init init_sim init_inv) as [S [I _]].
  exact (sim_unregistered _ _ old S I).
Qed.

Definition removes_or_replaces (o : op) (old : nobj) : Prop :=
  o = ODel (o_nid old) \/ exists o', o = OAdd o' /\ o_nid o' = o_nid old /\ o' <> old.

(* temporal form: after a successful remove / replace of [old], whatever happens next (short of
   adding the very same object again), no callback of [old] is invoked *)
Lemma removed_node_silent : forall ops1 old o ops2,
  let s := fst (run_ops ops1 init_net) in
  lookup_node (o_nid old) (nodes s) = Some old ->
  removes_or_replaces o old ->
  res_ok (snd (step o s)) = true ->
  Forall (fun o2 => o2 <> OAdd old) ops2 ->
  forall k c d t,
    ~ In (HNode old k, c, d, t) (concat (map log_of (snd (run_ops ops2 (fst (step o s)))))).
Proof.
  intros ops1 old o ops2 s _ Hrr Hok Hall.
  destruct (run_sim ops1 init_net ref_init init_sim init_inv) as [S [I _]]. fold s in S.
  destruct (step_sim o s _ S I) as [S1 [I1 _]].
  apply (silent_general ops2 _ _ old S1 I1); [|exact Hall]. rewrite step_nodes, Hok.
  destruct Hrr as [->|(o' & -> & Hn & Hne)].
  - rewrite lookup_del_node, Z.eqb_refl. discriminate.
  - rewrite lookup_set_node, Hn, Z.eqb_refl. intros [= E]. exact (Hne E).
Qed.

Lemma frame_format : forall (c : Z) (data : list Z) (remote : bool),
  let f := mk_frame c data remote in
  (f_id f = c /\ f_remote f = remote /\ (f_ext f = true <-> c > 2047) /\ f_err f = false /\
   f_data f = (if remote then [] else data)) /\
  send_message true c data remote = Ok [f] /\
  send_message false c data remote = Err E_RUNTIME /\
  (forall p, periodic_task c data p remote = (f, [(f, p)])).
Proof.
  intros c data remote f. subst f. unfold mk_frame, send_message, periodic_task; cbn.
  repeat split; auto; lia.
Qed.

Lemma listener_filters : forall (f : frame) (s : net),
  (f_err f = true \/ f_remote f = true -> listener f s = (s, [])) /\
  (f_err f = false -> f_remote f = false -> listener f s = notify (f_id f) (f_data f) (f_ts f) s).
Proof.
  intros f s. unfold listener. split.
  - intros [H|H]; rewrite H; [reflexivity | rewrite orb_true_r; reflexivity].
  - intros -> ->. reflexivity.
Qed.

(* subscribing the same callback twice: same state as subscribing once, and a frame is delivered
   to it exactly once (the delivery list has no duplicates and contains it) *)
Lemma double_subscribe_once : forall ops c u data ts,
  let s := fst (run_ops (ops ++ [OSub c u; OSub c u]) init_net) in
  s = fst (run_ops (ops ++ [OSub c u]) init_net) /\
  exists l, snd (notify c data ts s) = map (fun h => (h, c, data, ts)) l /\ NoDup l /\ In (HUser u) l.
Proof.
  intros ops c u data ts s. subst s. split.
  - rewrite !run_ops_app. cbn. unfold with_subs; cbn. rewrite subscribe_idempotent. reflexivity.
  - exists (r_map (fst (ref_run (ops ++ [OSub c u; OSub c u]) ref_init)) c).
    split; [apply notify_delivers|].
    destruct (dispatch_refines (ops ++ [OSub c u; OSub c u])) as [_ [A N]].
    split; [apply N|]. rewrite <- A. rewrite run_ops_app. cbn.
    rewrite abs_subscribe. apply r_sub_in. right. split; reflexivity.
Qed.

Definition frame_ok (c : Z) (remote : bool) (f : frame) : Prop :=
  f_id f = c /\ f_remote f = remote /\ f_ext f = (c >? 2047) /\ f_err f = false.

Definition call_ok (c : Z) (remote : bool) (d : list Z) (b : bus_call) : Prop :=
  match b with
  | BModify f dlc => frame_ok c remote f /\ f_data f = d /\ dlc = Z.of_nat (length d)
  | BStop => True
  | BSendPeriodic f dlc _ => frame_ok c remote f /\ f_data f = d /\ dlc = Z.of_nat (length d)
  end.

Lemma periodic_updates_ok : forall modify period c remote ds st,
  frame_ok c remote (fst st) ->
  Forall2 (fun d sc => frame_ok c remote (fst (fst sc)) /\ f_data (fst (fst sc)) = d /\
                       snd (fst sc) = Z.of_nat (length d) /\
                       Forall (call_ok c remote d) (snd sc))
          ds (periodic_updates modify period st ds).
Proof.
  induction ds as [|d r IH]; intros [m dlc] Hok; cbn [periodic_updates].
  - constructor.
  - assert (Hm : frame_ok c remote (set_frame_data m d)) by (destruct Hok as [A [B [C D]]]; repeat split; auto).
    unfold periodic_update. cbn [fst] in Hok.
    destruct modify; [|destruct (list_Z_eqb d (f_data m))]; constructor;
      try (apply IH; exact Hm); cbn; repeat split; auto; try apply Hm;
      repeat constructor; try apply Hm.
Qed.

Lemma periodic_update_format : forall modify period c data remote ds,
  Forall2 (fun d sc => frame_ok c remote (fst (fst sc)) /\ f_data (fst (fst sc)) = d /\
                       snd (fst sc) = Z.of_nat (length d) /\
                       Forall (call_ok c remote d) (snd sc))
          ds (periodic_updates modify period (periodic_start c data remote) ds).
Proof.
  intros. apply periodic_updates_ok. unfold periodic_start, mk_frame, frame_ok; cbn. auto.
Qed.

Lemma reentrant_dispatch_snapshot : forall scripts c data ts s,
  snd (notify_re scripts c data ts s) = Ok (snd (notify c data ts s)) /\
  snd (notify c data ts s) = map (fun h => (h, c, data, ts)) (abs (subs s) c).
Proof. intros. rewrite notify_snd. split; reflexivity. Qed.

Lemma dispatch_re_nil : forall l s, dispatch_re [] l s = s.
Proof. induction l as [|h r IH]; intros; cbn; auto. destruct h; cbn; apply IH. Qed.

Lemma step_re_nil : forall o s, step_re [] o s = step o s.
Proof.
  intros o s. destruct o; cbn [step_re step]; auto.
  - unfold notify_re, notify, live_list. rewrite dispatch_re_nil. cbn.
    destruct (lookup c (subs s)); reflexivity.
  - unfold listener. destruct (f_err f || f_remote f); auto.
    unfold notify_re, notify, live_list. rewrite dispatch_re_nil. cbn.
    destruct (lookup (f_id f) (subs s)); reflexivity.
Qed.

(* a history without re-entrant callbacks is a plain history: the theorems above apply to it *)
Lemma run_ops_re_nil : forall ops s, run_ops_re [] ops s = run_ops ops s.
Proof.
  induction ops as [|o r IH]; intros; cbn; auto.
  rewrite step_re_nil. destruct (step o s) as [s1 x]. rewrite IH. reflexivity.
Qed.
