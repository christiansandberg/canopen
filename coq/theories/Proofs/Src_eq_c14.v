(* Source tie (DESIGN.md 4.3) for C14: the decision logic of the export side as translated from the CURRENT source text
   (Gen/SrcC14.v: export_od, _revert_variable, and export_common / export_variable / export_record nested in
   export_eds) equals / determines the model functions of Model/Eds.v: export_od_type, revert_variable, value_text,
   var_entries and the head section of export_object. *)
From Coq Require Import ZArith List Bool.
From Coq Require String.
Import String.StringSyntax.
From CV Require Import Base.Bytes Base.Tys Gen.Tables Gen.EdsTables Gen.SrcC14 Model.Eds.
Import ListNotations.
Open Scope Z_scope.

Definition osome {A} (o : option A) : bool := match o with Some _ => true | None => false end.
Definition filled_str (t : str) : bool := match t with [] => false | _ => true end.

(* the doc_type argument as the translation sees it: 0 None, 1 "eds", 2 "dcf", 3 another non-empty string, 4 "" *)
Definition doc_code (t : option str) : Z :=
  match t with
  | None => 0
  | Some [] => 4
  | Some t => if streq t (s "eds") then 1 else if streq t (s "dcf") then 2 else 3
  end.

Theorem src_export_od_eq dest t :
  export_od_type dest t =
  src_export_od (osome dest)
    (match dest with Some n => ends_with (s ".dcf") n | None => false end)
    (match dest with Some n => ends_with (s ".eds") n | None => false end) (doc_code t).
Proof.
  unfold export_od_type, src_export_od, doc_code.
  destruct t as [[|c r]|].
  - destruct dest; reflexivity.
  - destruct (streq (c :: r) (s "eds")) eqn:E1.
    + apply list_Z_eqb_eq in E1. rewrite E1. destruct dest; reflexivity.
    + destruct (streq (c :: r) (s "dcf")) eqn:E2; destruct dest; reflexivity.
  - destruct dest as [n|]; [|reflexivity]. cbn [osome].
    destruct (ends_with (s ".dcf") n), (ends_with (s ".eds") n); reflexivity.
Qed.

Theorem src_revert_class dt z :
  src_revert_variable false dt z =
  if is_bytes_type dt then 1 else if is_text_type dt || zmem dt FLOAT_TYPES then 2 else if z <? 0 then 4 else 5.
Proof.
  unfold src_revert_variable, is_bytes_type, is_text_type.
  destruct ((dt =? dt_OCTET_STRING) || (dt =? dt_DOMAIN)); [reflexivity|].
  destruct ((dt =? dt_VISIBLE_STRING) || (dt =? dt_UNICODE_STRING)); [reflexivity|].
  destruct (zmem dt FLOAT_TYPES); reflexivity.
Qed.

Theorem src_revert_variable_eq dt v :
  revert_variable dt v =
  let code := src_revert_variable false dt (match v with PVInt z => z | _ => 0 end) in
  if code =? 1 then match v with PVBytes b => Some (tohex b) | _ => None end
  else if code =? 2 then
    (if is_text_type dt then match v with PVStr t => Some t | _ => None end
     else match v with PVFloat m e => Some (float_print (m, e)) | PVInt z => Some (dec z) | _ => None end)
  else match v with
       | PVInt z => Some (if code =? 4 then 45 :: fmt_0x02X (- z) else fmt_0x02X z)
       | _ => None
       end.
Proof.
  cbv zeta. rewrite src_revert_class. unfold revert_variable.
  destruct (is_bytes_type dt); [reflexivity|].
  destruct (is_text_type dt); [reflexivity|]. cbn [orb].
  destruct (zmem dt FLOAT_TYPES); [reflexivity|].
  destruct v as [z| | |]; try reflexivity. destruct (z <? 0); reflexivity.
Qed.

(* export_variable, the text of DefaultValue and ParameterValue.
   mode 0: key not written; 1: the original text kept by the importer; 2: _revert_variable of the value *)
Definition text_by_mode (mode dt : Z) (raw : option str) (val : option pyv) : option (option str) :=
  if mode =? 1 then Some raw
  else if mode =? 2 then match val with Some x => option_map Some (revert_variable dt x) | None => Some None end
  else Some None.

Theorem src_var_default_eq dt raw val :
  value_text dt raw val = text_by_mode (src_var_default (osome raw) (osome val) 0) dt raw val.
Proof.
  unfold value_text, text_by_mode, src_var_default. destruct raw as [t|]; [reflexivity|].
  destruct val as [x|]; [|reflexivity]. cbn. destruct (revert_variable dt x); reflexivity.
Qed.

Theorem src_var_value_eq (dcf : bool) dt raw val pv : value_text dt raw val = Some pv ->
  let mode := src_var_value dcf (osome raw) (osome val) 0 in
  (if dcf then pv else None) = (if mode =? 0 then None else pv) /\
  text_by_mode mode dt raw val = Some (if dcf then pv else None).
Proof.
  intros H. cbv zeta. destruct dcf; [|split; reflexivity].
  change (src_var_value true (osome raw) (osome val) 0) with (src_var_default (osome raw) (osome val) 0).
  rewrite <- src_var_default_eq. split; [|exact H].
  destruct raw, val; try reflexivity. injection H as <-. reflexivity.
Qed.

(* what each translated group of statements of export_variable returns, given the flags it starts from *)
Lemma src_var_head_eq top a b c : src_var_head top a b c = (top, true, OT_VAR).
Proof. destruct top; reflexivity. Qed.

Lemma src_export_common_eq h a b : src_export_common h a b = (true, b || h).
Proof. destruct h, b; reflexivity. Qed.

Lemma src_var_type_eq dt h a b : src_var_type dt h a b = (a || negb (dt =? 0), b || h).
Proof. unfold src_var_type. destruct (dt =? 0), h, a, b; reflexivity. Qed.

Lemma src_var_limits_eq lo hi a b : src_var_limits lo hi a b = (a || lo, b || hi).
Proof. destruct lo, hi, a, b; reflexivity. Qed.

Lemma src_var_text_eq d f u a b c : src_var_text d f u a b c = (a || d, b || f, c || u).
Proof. destruct d, f, u, a, b, c; reflexivity. Qed.

Lemma nonempty_filled t : nonempty t = if filled_str t then Some t else None.
Proof. destruct t; reflexivity. Qed.

Lemma osome_map {A B} (f : A -> B) o : (if osome o then option_map f o else None) = option_map f o.
Proof. destruct o; reflexivity. Qed.

Theorem src_var_entries_eq (dcf top : bool) v dv pv :
  let '(top_, named, ot) := src_var_head top false false 0 in
  let '(w_name, w_sto) := src_export_common (match v_storage v with Some t => filled_str t | None => false end) false false in
  let '(w_dt1, w_acc) := src_var_type (v_dt v) (filled_str (v_access v)) false false in
  let '(w_dt, w_pdo) := src_var_fixed w_dt1 false in
  let '(w_low, w_high) := src_var_limits (osome (v_min v)) (osome (v_max v)) false false in
  let '(w_descr, w_factor, w_unit) :=
    src_var_text (filled_str (v_descr v)) (negb ((fst (v_factor v) =? 1) && (snd (v_factor v) =? 0)))
                 (filled_str (v_unit v)) false false false in
  var_section_name top v = (if top_ then fmt_X 4 (v_index v) else fmt_X 4 (v_index v) ++ s "sub" ++ fmt_X 0 (v_sub v)) /\
  named = true /\
  var_entries dcf v dv pv =
  [ (k_PName, if w_name then Some (v_name v) else None);
    (s "StorageLocation", if w_sto then v_storage v else None);
    (s "ObjectType", Some (s "0x" ++ fmt_X 0 ot));
    (s "DataType", if w_dt then Some (s "0x" ++ fmt_X 4 (v_dt v)) else None);
    (s "AccessType", if w_acc then Some (v_access v) else None);
    (s "DefaultValue", dv);
    (k_PValue, if dcf then pv else None);
    (s "PDOMapping", if w_pdo then Some (hex_bool (v_pdo v)) else None);
    (s "LowLimit", if w_low then option_map dec (v_min v) else None);
    (s "HighLimit", if w_high then option_map dec (v_max v) else None);
    (s "Description", if w_descr then Some (v_descr v) else None);
    (s "Factor", if w_factor then Some (float_print (v_factor v)) else None);
    (s "Unit", if w_unit then Some (v_unit v) else None) ].
Proof.
  rewrite src_var_head_eq, src_export_common_eq, src_var_type_eq, src_var_limits_eq, src_var_text_eq.
  cbv beta iota delta [src_var_fixed orb]. split; [reflexivity|split; [reflexivity|]].
  unfold var_entries. rewrite !nonempty_filled, !osome_map, if_negb.
  destruct (v_storage v) as [t|]; [rewrite nonempty_filled|]; reflexivity.
Qed.

Theorem src_export_record_eq dcf c secs : export_object dcf (OCont c) = Some secs ->
  let '(ot, subnumber, members) :=
    src_export_record (match c_kind c with KRec => true | KArr => false end) (Z.of_nat (length (c_subs c))) 0 0 false in
  let '(w_name, w_sto) := src_export_common (match c_storage c with Some t => filled_str t | None => false end) false false in
  members = true /\
  hd_error secs = Some (fmt_X 4 (c_index c), kvs_of
    [ (k_PName, if w_name then Some (c_name c) else None);
      (s "StorageLocation", if w_sto then c_storage c else None);
      (s "SubNumber", Some (s "0x" ++ fmt_X 0 subnumber));
      (s "ObjectType", Some (s "0x" ++ fmt_X 0 ot)) ]).
Proof.
  unfold export_object, src_export_record, src_export_common.
  destruct (opt_all _) as [l|]; [|discriminate]. cbn [option_map]. intros H. injection H as <-.
  destruct (c_kind c), (c_storage c) as [[|c0 t0]|]; cbn [filled_str hd_error nonempty]; split; reflexivity.
Qed.
