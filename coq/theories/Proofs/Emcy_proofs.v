(* EMCY consumer and producer (Model/Emcy.v, C16).  Feeding frames to the consumer is folding record_entry over the
   entries they decode to (feed_is_entries), so the log, the active list and the callback log come from one induction
   over entries (feed_entries_spec).  The description table is compared with the CiA 301 error classes on the 256
   high bytes, both sides ignoring the low byte.  EmcyConsumer.wait is `find` over the entries that arrive before
   the time-out (wait_next_match). *)
From Coq Require Import ZArith List Bool Lia.
From Coq Require String.
From CV Require Import Base.Val Base.Bits Base.Bytes Gen.EmcyTables Model.Emcy.
Import ListNotations.
Open Scope Z_scope.

Lemma fold_left_app_step {A B} (f : A -> B -> A) l x a : fold_left f (l ++ [x]) a = f (fold_left f l a) x.
Proof. rewrite fold_left_app. reflexivity. Qed.

(* the regenerated layout is the CiA 301 EMCY frame: 2 + 1 + 5 = 8 bytes *)
Lemma layout : EMCY_CODE_BYTES = 2 /\ EMCY_REG_BYTES = 1 /\ EMCY_DATA_BYTES = 5 /\ EMCY_SIZE = 8.
Proof. repeat split; reflexivity. Qed.

(* what an 8-byte frame means, written directly: bytes 0-1 code (little endian), byte 2 register,
   bytes 3-7 manufacturer specific *)
Definition frame_entry (f : list Z) (ts : Z) : entry :=
  mkE (nth 0 f 0 + 256 * nth 1 f 0) (nth 2 f 0)
      [nth 3 f 0; nth 4 f 0; nth 5 f 0; nth 6 f 0; nth 7 f 0] ts.

Lemma decode_unfold f ts : decode_emcy f ts =
  if zlen f =? 8 then Ok (mkE (le_decode (firstn 2 f)) (le_decode (firstn 1 (skipn 2 f))) (firstn 5 (skipn 3 f)) ts)
  else Err E_STRUCT.
Proof. reflexivity. Qed.

Lemma decode_spec f ts : zlen f = 8 -> decode_emcy f ts = Ok (frame_entry f ts).
Proof.
  unfold zlen. intros H.
  destruct f as [|b0 [|b1 [|b2 [|b3 [|b4 [|b5 [|b6 [|b7 [|b8 r]]]]]]]]]; cbn [length] in H; try lia.
  rewrite decode_unfold. unfold frame_entry, zlen. cbn [length firstn skipn le_decode nth].
  replace (Z.of_nat 8 =? 8) with true by reflexivity. f_equal. f_equal; ring.
Qed.

Lemma decode_rejects f ts : zlen f <> 8 -> decode_emcy f ts = Err E_STRUCT.
Proof. intros H. rewrite decode_unfold. destruct (zlen f =? 8) eqn:E; [lia|reflexivity]. Qed.

Lemma decode_parts a b c ts : length a = 2%nat -> length b = 1%nat -> length c = 5%nat ->
  decode_emcy (a ++ b ++ c) ts = Ok (mkE (le_decode a) (le_decode b) c ts).
Proof.
  intros Ha Hb Hc.
  destruct a as [|a0 [|a1 [|a2 a]]]; cbn in Ha; try lia.
  destruct b as [|b0 [|b1 b]]; cbn in Hb; try lia.
  destruct c as [|c0 [|c1 [|c2 [|c3 [|c4 [|c5 c]]]]]]; cbn in Hc; try lia.
  rewrite decode_unfold. reflexivity.
Qed.

Definition feed_entries (s : cstate) (es : list entry) : cstate := fold_left record_entry es s.

Lemma feed_is_entries fs : forall s, feed s fs = feed_entries s (decoded fs).
Proof.
  unfold feed, feed_entries, decoded.
  induction fs as [|[f ts] r IH]; intros s; [reflexivity|].
  cbn [fold_left flat_map]. rewrite IH. unfold feed1, on_emcy. cbn [fst snd].
  destruct (decode_emcy f ts) as [e|k|c]; reflexivity.
Qed.

Definition invocations (n : nat) (es : list entry) : list (Z * entry) :=
  flat_map (fun e => map (fun i => (i, e)) (cb_ids n)) es.

Lemma feed_entries_spec es : forall s,
  s_log (feed_entries s es) = s_log s ++ es /\
  s_ncb (feed_entries s es) = s_ncb s /\
  s_cblog (feed_entries s es) = s_cblog s ++ invocations (s_ncb s) es.
Proof.
  unfold feed_entries, invocations. induction es as [|e r IH]; intros s; cbn [fold_left flat_map].
  - now rewrite !app_nil_r.
  - destruct (IH (record_entry s e)) as (-> & -> & ->). cbn [record_entry s_log s_ncb s_cblog].
    now rewrite <- !app_assoc.
Qed.

Lemma entries_ncb es : forall s, s_ncb (feed_entries s es) = s_ncb s.
Proof. intros s. apply feed_entries_spec. Qed.

Lemma entries_active_noreset es : forall s, Forall (fun e => is_reset e = false) es ->
  s_active (feed_entries s es) = s_active s ++ es.
Proof.
  unfold feed_entries. induction es as [|e r IH]; intros s H; cbn [fold_left].
  - now rewrite app_nil_r.
  - inversion H as [|x y He Hr]; subst. rewrite IH by assumption.
    cbn [record_entry s_active]. rewrite He. now rewrite <- app_assoc.
Qed.

Lemma entries_active_reset s pre r post : is_reset r = true -> Forall (fun e => is_reset e = false) post ->
  s_active (feed_entries s (pre ++ r :: post)) = post.
Proof.
  intros Hr Hp. unfold feed_entries. rewrite fold_left_app. cbn [fold_left].
  apply (entries_active_noreset post (record_entry (fold_left record_entry pre s) r)) in Hp.
  unfold feed_entries in Hp. rewrite Hp. cbn [record_entry s_active]. rewrite Hr. reflexivity.
Qed.

Lemma log_mirrors s fs : s_log (feed s fs) = s_log s ++ decoded fs.
Proof. rewrite feed_is_entries. apply feed_entries_spec. Qed.

Lemma log_wellformed fs : Forall (fun ft => zlen (fst ft) = 8) fs ->
  decoded fs = map (fun ft => frame_entry (fst ft) (snd ft)) fs.
Proof.
  unfold decoded. induction 1 as [|[f ts] r H Hr IH]; [reflexivity|].
  cbn [flat_map map fst snd] in *. rewrite decode_spec by assumption. rewrite IH. reflexivity.
Qed.

Lemma log_is_frames n fs : Forall (fun ft => zlen (fst ft) = 8) fs ->
  s_log (feed (init n) fs) = map (fun ft => frame_entry (fst ft) (snd ft)) fs.
Proof. intros H. rewrite log_mirrors, log_wellformed by assumption. reflexivity. Qed.

Lemma malformed_ignored s f ts : zlen f <> 8 -> on_emcy s f ts = Err E_STRUCT /\ feed s [(f, ts)] = s.
Proof.
  intros H. unfold feed, feed1, on_emcy. cbn [fold_left fst snd]. rewrite decode_rejects by assumption.
  split; reflexivity.
Qed.

Lemma active_no_reset s fs : Forall (fun e => is_reset e = false) (decoded fs) ->
  s_active (feed s fs) = s_active s ++ decoded fs.
Proof. intros H. rewrite feed_is_entries. now apply entries_active_noreset. Qed.

Lemma active_since_reset s fs pre r post : decoded fs = pre ++ r :: post -> is_reset r = true ->
  Forall (fun e => is_reset e = false) post -> s_active (feed s fs) = post.
Proof. intros E Hr Hp. rewrite feed_is_entries, E. now apply entries_active_reset. Qed.

(* the reset test of on_emcy (code & 0xFF00 == 0) is the CiA 301 error class 00xx, on all 16-bit codes:
   0xFF00 masks the byte at bit 8 *)
Lemma land_ff00 c : 0 <= c < 65536 -> Z.land c 65280 = 256 * (c / 256).
Proof. intros H. change 65280 with (Z.shiftl (Z.ones 8) 8). rewrite land_field by lia. change (2 ^ 8) with 256. Z.div_mod_to_equations. lia. Qed.

Lemma reset_is_class_00 c : 0 <= c < 65536 -> is_reset_code c = (c <? 256).
Proof. intros H. unfold is_reset_code. rewrite land_ff00 by assumption. Z.div_mod_to_equations. lia. Qed.

Lemma filter_ids_none i n : ~ (0 <= i < Z.of_nat n) -> filter (fun j => j =? i) (cb_ids n) = [].
Proof.
  unfold cb_ids. induction n as [|n IH]; intros H; [reflexivity|].
  rewrite seq_S, map_app, filter_app, IH by lia. cbn [map filter plus].
  destruct (Z.of_nat n =? i) eqn:E; [lia|reflexivity].
Qed.

Lemma filter_ids i n : 0 <= i < Z.of_nat n -> filter (fun j => j =? i) (cb_ids n) = [i].
Proof.
  induction n as [|n IH]; intros H; [lia|].
  unfold cb_ids. rewrite seq_S, map_app, filter_app. fold (cb_ids n). cbn [map filter plus].
  destruct (Z.eqb_spec (Z.of_nat n) i) as [<-|Hne].
  - rewrite filter_ids_none by lia. reflexivity.
  - rewrite IH by lia. reflexivity.
Qed.

Lemma filter_pairs i (e : entry) l :
  filter (fun p : Z * entry => fst p =? i) (map (fun j => (j, e)) l) = map (fun j => (j, e)) (filter (fun j => j =? i) l).
Proof.
  induction l as [|x l IH]; [reflexivity|]. cbn [map filter fst]. destruct (x =? i); cbn [map]; now rewrite IH.
Qed.

Lemma invocations_of_callback i n es : 0 <= i < Z.of_nat n ->
  map snd (filter (fun p => fst p =? i) (invocations n es)) = es.
Proof.
  intros H. unfold invocations. induction es as [|e r IH]; [reflexivity|].
  cbn [flat_map]. rewrite filter_app, map_app, IH, filter_pairs, filter_ids by assumption. reflexivity.
Qed.

Lemma invocations_unregistered i n es : ~ (0 <= i < Z.of_nat n) ->
  filter (fun p => fst p =? i) (invocations n es) = [].
Proof.
  intros H. unfold invocations. induction es as [|e r IH]; [reflexivity|].
  cbn [flat_map]. rewrite filter_app, IH, filter_pairs, filter_ids_none by assumption. reflexivity.
Qed.

Lemma callbacks_in_order s fs : s_cblog (feed s fs) = s_cblog s ++ invocations (s_ncb s) (decoded fs).
Proof. rewrite feed_is_entries. apply feed_entries_spec. Qed.

Lemma callbacks_once_each n fs i : 0 <= i < Z.of_nat n ->
  map snd (filter (fun p => fst p =? i) (s_cblog (feed (init n) fs))) = decoded fs.
Proof.
  intros H. rewrite callbacks_in_order. cbn [init s_cblog s_ncb app].
  now apply invocations_of_callback.
Qed.

Lemma pad_short data : (length data <= 5)%nat -> pad_data data = data ++ repeat 0 (5 - length data).
Proof.
  intros H. unfold pad_data. change (Z.to_nat EMCY_DATA_BYTES) with 5%nat.
  destruct data as [|d0 [|d1 [|d2 [|d3 [|d4 [|d5 r]]]]]]; cbn [length] in H; try lia; reflexivity.
Qed.

Lemma pad_length data : length (pad_data data) = 5%nat.
Proof.
  unfold pad_data. change (Z.to_nat EMCY_DATA_BYTES) with 5%nat.
  rewrite firstn_length, app_length, repeat_length. lia.
Qed.

Lemma encode_unfold code reg data : encode_emcy code reg data =
  if (0 <=? code) && (code <? 65536) && (0 <=? reg) && (reg <? 256)
  then Ok (le_encode 2 code ++ le_encode 1 reg ++ pad_data data) else Err E_STRUCT.
Proof. reflexivity. Qed.

Lemma encode_ok code reg data : 0 <= code < 65536 -> 0 <= reg < 256 ->
  encode_emcy code reg data = Ok (le_encode 2 code ++ le_encode 1 reg ++ pad_data data).
Proof. intros Hc Hr. rewrite encode_unfold. destruct (_ && _ && _ && _) eqn:E; [reflexivity|lia]. Qed.

Lemma encode_rejects code reg data : ~ (0 <= code < 65536 /\ 0 <= reg < 256) ->
  encode_emcy code reg data = Err E_STRUCT.
Proof. intros H. rewrite encode_unfold. destruct (_ && _ && _ && _) eqn:E; [lia|reflexivity]. Qed.

Lemma roundtrip_general code reg data ts : 0 <= code < 65536 -> 0 <= reg < 256 ->
  exists f, producer_send code reg data = Ok f /\ zlen f = 8 /\
            decode_emcy f ts = Ok (mkE code reg (pad_data data) ts).
Proof.
  intros Hc Hr. unfold producer_send. rewrite encode_ok by assumption.
  eexists. split; [reflexivity|]. split.
  - unfold zlen. rewrite !app_length, !le_encode_length, pad_length. reflexivity.
  - rewrite decode_parts by (rewrite ?le_encode_length, ?pad_length; reflexivity).
    rewrite !le_decode_encode.
    change (2 ^ (8 * Z.of_nat 2)) with 65536. change (2 ^ (8 * Z.of_nat 1)) with 256.
    rewrite !Z.mod_small by lia. reflexivity.
Qed.

Lemma producer_consumer_roundtrip code reg data ts : 0 <= code < 65536 -> 0 <= reg < 256 -> (length data <= 5)%nat ->
  exists f, producer_send code reg data = Ok f /\ zlen f = 8 /\
            decode_emcy f ts = Ok (mkE code reg (data ++ repeat 0 (5 - length data)) ts).
Proof.
  intros Hc Hr Hd. destruct (roundtrip_general code reg data ts Hc Hr) as [f [H1 [H2 H3]]].
  exists f. rewrite <- pad_short by assumption. auto.
Qed.

(* the consumer that receives the produced frame logs exactly that entry, and (unless it is a reset) holds it active *)
Lemma producer_into_consumer s code reg data ts : 0 <= code < 65536 -> 0 <= reg < 256 -> (length data <= 5)%nat ->
  exists f, producer_send code reg data = Ok f /\
    let e := mkE code reg (data ++ repeat 0 (5 - length data)) ts in
    on_emcy s f ts = Ok (record_entry s e) /\
    s_log (feed s [(f, ts)]) = s_log s ++ [e] /\
    s_active (feed s [(f, ts)]) = if code <? 256 then [] else s_active s ++ [e].
Proof.
  intros Hc Hr Hd. destruct (producer_consumer_roundtrip code reg data ts Hc Hr Hd) as [f [H1 [H2 H3]]].
  exists f. split; [assumption|]. cbn zeta.
  unfold feed, feed1, on_emcy. cbn [fold_left fst snd]. rewrite H3. cbn [rbind].
  split; [reflexivity|]. split; [reflexivity|].
  cbn [record_entry s_active]. unfold is_reset. cbn [e_code]. rewrite reset_is_class_00 by assumption. reflexivity.
Qed.

Lemma producer_reset_is_reset reg data ts : 0 <= reg < 256 ->
  producer_reset reg data = producer_send 0 reg data /\
  exists f e, producer_reset reg data = Ok f /\ decode_emcy f ts = Ok e /\ is_reset e = true /\
              e_reg e = reg /\ e_data e = pad_data data.
Proof.
  intros Hr. split; [reflexivity|].
  destruct (roundtrip_general 0 reg data ts ltac:(lia) Hr) as [f [H1 [H2 H3]]].
  exists f. eexists. split; [exact H1|]. split; [exact H3|]. repeat split; reflexivity.
Qed.

(* CiA 301 emergency error classes, by ranges of the error code (the class names are the library's
   wording of the CiA 301 table "emergency error code classes"):
     00xx error reset / no error, 10xx generic, 2xxx current, 3xxx voltage, 4xxx temperature,
     50xx device hardware, 6xxx device software, 70xx additional modules, 8xxx monitoring,
     90xx external error, F0xx additional functions, FFxx device specific; anything else has no class. *)
Module Cia301.
Import String.
Local Open Scope string_scope.
Local Open Scope Z_scope.
Definition class (c : Z) : string :=
  (if (0 <=? c) && (c <=? 255) then "Error Reset / No Error"
   else if (4096 <=? c) && (c <=? 4351) then "Generic Error"
   else if (8192 <=? c) && (c <=? 12287) then "Current"
   else if (12288 <=? c) && (c <=? 16383) then "Voltage"
   else if (16384 <=? c) && (c <=? 20479) then "Temperature"
   else if (20480 <=? c) && (c <=? 20735) then "Device Hardware"
   else if (24576 <=? c) && (c <=? 28671) then "Device Software"
   else if (28672 <=? c) && (c <=? 28927) then "Additional Modules"
   else if (32768 <=? c) && (c <=? 36863) then "Monitoring"
   else if (36864 <=? c) && (c <=? 37119) then "External Error"
   else if (61440 <=? c) && (c <=? 61695) then "Additional Functions"
   else if (65280 <=? c) && (c <=? 65535) then "Device Specific"
   else "").
End Cia301.
Definition cia301_class : Z -> String.string := Cia301.class.

(* Both sides depend on the high byte of the code only: a mask that is a multiple of 256 ignores the low byte,
   and every class begins and ends on a multiple of 256.  That leaves 256 codes to compare. *)
Lemma land_aligned c m : m mod 256 = 0 -> Z.land c m = Z.land (256 * (c / 256)) m.
Proof.
  intros Hm. apply Z.bits_inj'. intros n Hn. rewrite !Z.land_spec.
  rewrite (Z.div_mod m 256), Hm, Z.add_0_r, !(Z.mul_comm 256) by lia. change 256 with (2 ^ 8).
  destruct (Z.ltb_spec n 8).
  - rewrite (Z.mul_pow2_bits_low (m / 2 ^ 8)), !andb_false_r by assumption. reflexivity.
  - rewrite (Z.mul_pow2_bits (c / 2 ^ 8)), Z.div_pow2_bits by lia. do 2 f_equal. lia.
Qed.

Lemma desc_lookup_aligned rows c : forallb (fun r => snd (fst r) mod 256 =? 0) rows = true ->
  desc_lookup rows c = desc_lookup rows (256 * (c / 256)).
Proof.
  induction rows as [|[[k m] d] r IH]; [reflexivity|]. cbn [forallb desc_lookup fst snd].
  intros [Hm Hr]%andb_true_iff. rewrite <- land_aligned, <- IH by (assumption || lia). reflexivity.
Qed.

Lemma if_aligned {A} lo hi c (x y y' : A) : lo mod 256 = 0 -> hi mod 256 = 255 -> y = y' ->
  (if (lo <=? c) && (c <=? hi) then x else y) =
  (if (lo <=? 256 * (c / 256)) && (256 * (c / 256) <=? hi) then x else y').
Proof.
  intros Hl Hh ->. replace ((lo <=? c) && (c <=? hi)) with ((lo <=? 256 * (c / 256)) && (256 * (c / 256) <=? hi))
    by (Z.div_mod_to_equations; lia).
  reflexivity.
Qed.

Lemma class_aligned c : cia301_class c = cia301_class (256 * (c / 256)).
Proof.
  unfold cia301_class, Cia301.class.
  (* each application settles one test of the chain and leaves the rest of the chain as its premise y = y' *)
  repeat (apply if_aligned; [reflexivity|reflexivity|]). reflexivity.
Qed.

Lemma desc_table_is_cia301 c : 0 <= c < 65536 -> get_desc c = str_codes (cia301_class c).
Proof.
  intros H. unfold get_desc. rewrite desc_lookup_aligned, class_aligned by (vm_compute; reflexivity).
  apply list_Z_eqb_eq.
  apply (range_forall (fun h => list_Z_eqb (desc_lookup DESCRIPTIONS (256 * h)) (str_codes (cia301_class (256 * h)))) 0 256);
    [vm_compute; reflexivity | Z.div_mod_to_equations; lia].
Qed.

(* every entry that arrives while the caller waits, up to the time-out (a wake-up with an unchanged log,
   a wake-up past the deadline, or nothing more) *)
Fixpoint arrivals (ws : list wake) : list entry :=
  match ws with
  | [] => []
  | WTimeout :: _ => []
  | WNew b late :: r => match b with [] => [] | _ => if late then [] else b ++ arrivals r end
  end.

Lemma find_app {A} (f : A -> bool) a b :
  find f (a ++ b) = match find f a with Some x => Some x | None => find f b end.
Proof. induction a as [|x a IH]; [reflexivity|]. cbn [app find]. destruct (f x); [reflexivity|exact IH]. Qed.

Lemma find_first {A} (f : A -> bool) l e : find f l = Some e ->
  exists pre post, l = pre ++ e :: post /\ f e = true /\ Forall (fun x => f x = false) pre.
Proof.
  induction l as [|x l IH]; [discriminate|]. cbn [find]. destruct (f x) eqn:E; intros H.
  - injection H as ->. exists [], l. repeat split; [assumption|constructor].
  - destruct (IH H) as [pre [post [H1 [H2 H3]]]]. exists (x :: pre), post. subst l.
    repeat split; [assumption|]. constructor; assumption.
Qed.

(* for EVERY wake-up schedule and every older log: the caller is handed the first matching entry
   that arrives before the time-out, or nothing *)
Lemma wait_next_match filt ws : forall log, wait_scan filt log ws = find (matchb filt) (arrivals ws).
Proof.
  induction ws as [|[|b late] r IH]; intros log; [reflexivity|reflexivity|].
  cbn [wait_scan arrivals]. destruct b as [|x b].
  - rewrite app_nil_r, Nat.eqb_refl. reflexivity.
  - replace (length (log ++ x :: b) =? length log)%nat with false
      by (symmetry; apply Nat.eqb_neq; rewrite app_length; cbn [length]; lia).
    destruct late; [reflexivity|].
    rewrite skipn_app_exact, find_app by reflexivity. destruct (find (matchb filt) (x :: b)); [reflexivity|]. apply IH.
Qed.

Lemma wait_handed_first_match filt log ws e : wait_scan filt log ws = Some e ->
  exists pre post, arrivals ws = pre ++ e :: post /\ matchb filt e = true /\
                   Forall (fun x => matchb filt x = false) pre.
Proof. rewrite wait_next_match. apply find_first. Qed.

Lemma wait_nothing filt log ws : wait_scan filt log ws = None ->
  Forall (fun x => matchb filt x = false) (arrivals ws).
Proof. rewrite wait_next_match. intros H. apply Forall_forall. exact (find_none _ _ H). Qed.

Fixpoint in_time (ws : list wake) : list wake :=
  match ws with
  | WNew (x :: b) false :: r => WNew (x :: b) false :: in_time r
  | _ => []
  end.

Lemma arrivals_concat ws : arrivals ws = arrivals (in_time ws).
Proof.
  induction ws as [|[|b late] r IH]; [reflexivity|reflexivity|].
  destruct b as [|x b]; [reflexivity|]. destruct late; [reflexivity|].
  cbn [arrivals in_time]. rewrite IH. reflexivity.
Qed.

(* the result does not depend on how the arrivals are spread over the wake-ups *)
Lemma wait_schedule_independent filt log1 log2 ws1 ws2 : arrivals ws1 = arrivals ws2 ->
  wait_scan filt log1 ws1 = wait_scan filt log2 ws2.
Proof. intros H. rewrite !wait_next_match, H. reflexivity. Qed.

Lemma arrivals_app_stop pre s : arrivals s = [] -> arrivals (pre ++ s) = arrivals pre.
Proof.
  intros H. induction pre as [|[|b late] r IH]; cbn [app arrivals]; [assumption|reflexivity|].
  destruct b as [|x b]; [reflexivity|]. destruct late; [reflexivity|]. rewrite IH. reflexivity.
Qed.

(* the deadline: whatever is logged at or after a wake-up past the deadline is never handed out *)
Lemma wait_deadline filt log pre b r :
  wait_scan filt log (pre ++ WNew b true :: r) = wait_scan filt log pre.
Proof.
  rewrite !wait_next_match. rewrite arrivals_app_stop; [reflexivity|].
  cbn [arrivals]. destruct b; reflexivity.
Qed.

Definition msg_args (m : prod_msg) : Z * Z * list Z :=
  match m with PSend c r d => (c, r, d) | PReset r d => (0, r, d) end.

Definition msg_ok (m : prod_msg) : Prop :=
  let '(c, r, _) := msg_args m in 0 <= c < 65536 /\ 0 <= r < 256.

Fixpoint msg_entries (ts : Z) (msgs : list prod_msg) : list entry :=
  match msgs with
  | [] => []
  | m :: r => let '(c, g, d) := msg_args m in mkE c g (pad_data d) ts :: msg_entries (ts + 1) r
  end.

Lemma producer_msg_args m : producer_msg m = let '(c, g, d) := msg_args m in producer_send c g d.
Proof. destruct m; reflexivity. Qed.

(* every message is decoded with ITS OWN data, zero padded, whatever was sent before it *)
Lemma producer_sequence msgs : forall s ts, Forall msg_ok msgs ->
  s_log (produce_all s ts msgs) = s_log s ++ msg_entries ts msgs.
Proof.
  induction msgs as [|m r IH]; intros s ts H; cbn [produce_all msg_entries].
  - now rewrite app_nil_r.
  - inversion H as [|x y Hm Hr]; subst.
    rewrite producer_msg_args. unfold msg_ok in Hm. destruct (msg_args m) as [[c g] d], Hm as [Hc Hg].
    destruct (roundtrip_general c g d ts Hc Hg) as [f [H1 [H2 H3]]].
    rewrite H1, IH by assumption.
    unfold feed1, on_emcy. cbn [fst snd]. rewrite H3. cbn [rbind record_entry s_log].
    now rewrite <- app_assoc.
Qed.
