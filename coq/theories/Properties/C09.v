(* C09 - Saving a PDO configuration follows the safe procedure and reads back identically.
   Statements only: each theorem is [exact] of a lemma of Proofs/{PdoCfg_proofs.v, Src_eq_c09.v};
   the examples are concrete instances.
   Model: Model/PdoCfg.v (PdoMap.save = save_io / save_writes, PdoMap.read = read_cfg with the SDO source
   sdo_get and the dictionary source od_get, PdoMap.subscribe, add_variable, PdoMaps indices),
   reference peer: Model/StrictDevice.v (strict CiA 301 device, any prior register state),
   tables: Gen/PdoTables.v (PDO_NOT_VALID, RTR_NOT_ALLOWED, RPDO/TPDO offsets) regenerated on every run.

   Hypotheses (all decidable, defined in Proofs/PdoCfg_proofs.v):
     cfg_wfb c      forced by the code: cob_id set and < 2^29 (read() masks with 0x1FFFFFFF), transmission
                    type / timers within their CiA 301 types (else encode_raw raises), every mapped entry
                    0 < index < 2^16, sub < 2^8, 0 < length < 128 (read() masks the length with 0x7F and
                    drops entries with index 0 or length 0), fewer than 256 entries;
     od_coversb     the dictionary has every sub-entry save() touches (else KeyError);
     dev_coversb    the device has every register save() writes, can map the objects, total <= 64 bits;
     in_odb         the mapped objects are in the reading node's dictionary (else add_variable drops them).
   The prior register state r0 of the device is universally quantified: enabled or not, any mapping. *)
From Coq Require Import ZArith List Bool.
From CV Require Import Base.Val Base.Bytes Base.Tys Gen.PdoTables Model.StrictDevice Model.PdoCfg Proofs.PdoCfg_proofs
  Gen.SrcC09 Proofs.Src_eq_c09.
Import ListNotations.
Open Scope Z_scope.

(* For every well-formed configuration and EVERY prior device state the strict device accepts every write
   of save(), in the order of save_writes: the device's log is exactly that list with every verdict
   "accepted", and the code (save_io, which stops at the first error) runs to the end, leaves the map
   object unchanged and subscribes iff enabled. *)
Theorem C09_save_accepted_in_order : forall d od com c r0 subs,
  d_mode d = MODE_STRICT -> is_com com = true ->
  cfg_wfb c = true -> od_coversb od c = true -> dev_coversb d r0 com c = true ->
  let mp := com + 0x200 in
  let ws := save_writes com mp c in
  run_writes d (r0, []) ws = ((apply_writes r0 ws, acc ws), None) /\
  save_io (log_write d) log_ul od com mp c subs (r0, []) =
    ((apply_writes r0 ws, acc ws), Ok (c, if c_enabled c then subscribe c subs else subs)).
Proof. exact save_accepted_in_order. Qed.

(* The order: first write = COB-ID entry with bit 31 set (PDO invalidated), then only communication
   parameters 2/3/5/6, then count := 0, then the entries 1..n in order, then count := n, then - last, and
   only if enabled - the COB-ID entry with bit 31 clear. *)
Theorem C09_save_order : forall com mp c, cfg_wfb c = true ->
  exists cob params,
    c_cob c = Some cob /\
    let first := cob + 2 ^ 31 + (if c_rtr c then 0 else 2 ^ 30) in
    let last := cob + (if c_rtr c then 0 else 2 ^ 30) in
    save_writes com mp c =
      (com, 1, first) :: params ++ (mp, 0, 0) :: entry_writes mp 1 (c_map c) ++
      (mp, 0, zlen (c_map c)) :: (if c_enabled c then [(com, 1, last)] else []) /\
    Forall (is_param_write com) params /\
    Z.testbit first 31 = true /\ Z.testbit last 31 = false /\
    (forall j e, nth_error (c_map c) j = Some e ->
       nth_error (entry_writes mp 1 (c_map c)) j = Some (mp, 1 + Z.of_nat j, map_word e)).
Proof. exact save_order. Qed.

(* Final registers = CiA 301 encodings: COB-ID word = cob + (bit 31 iff not enabled) + (bit 30 iff RTR
   not allowed); parameters as set; count; entry j = index * 2^16 + sub * 2^8 + length; every register of
   another object is untouched. *)
Theorem C09_save_encodes : forall com c r0 cob, cfg_wfb c = true -> c_cob c = Some cob ->
  let mp := com + 0x200 in
  let r' := apply_writes r0 (save_writes com mp c) in
  let w := cob_word c cob in
  rget r' com 1 = Some w /\
  0 <= w < 2 ^ 32 /\ Z.testbit w 31 = negb (c_enabled c) /\ Z.testbit w 30 = negb (c_rtr c) /\ w mod 2 ^ 29 = cob /\
  (forall v, c_tt c = Some v -> rget r' com 2 = Some v) /\
  (forall v, c_inhibit c = Some v -> rget r' com 3 = Some v) /\
  (forall v, c_event c = Some v -> rget r' com 5 = Some v) /\
  (forall v, c_sync c = Some v -> rget r' com 6 = Some v) /\
  rget r' mp 0 = Some (zlen (c_map c)) /\
  (forall j e, nth_error (c_map c) j = Some e -> rget r' mp (1 + Z.of_nat j) = Some (map_word e)) /\
  (forall i s, i <> com -> i <> mp -> rget r' i s = rget r0 i s).
Proof. exact save_encodes. Qed.

(* read() by SDO into a fresh map object gives the same COB-ID, flags, transmission type and mapping, for
   transmission types 254/255 the timers that were set, and subscribes iff enabled (subscribe c' []). *)
Theorem C09_read_after_save : forall od com c r0 cob tt,
  cfg_wfb c = true -> od_coversb od c = true ->
  c_cob c = Some cob -> c_tt c = Some tt -> forallb (in_odb (o_objs od)) (c_map c) = true ->
  let mp := com + 0x200 in
  let r' := apply_writes r0 (save_writes com mp c) in
  exists c', read_cfg (sdo_get od com mp r') (o_objs od) com mp fresh_cfg [] = Ok (c', subscribe c' []) /\
             same_config c c' cob tt.
Proof. exact read_after_save. Qed.

(* the map's callback is registered for x exactly when it already was, or the map is enabled and x is its COB-ID *)
Theorem C09_subscribe_iff_enabled : forall c cob subs x, c_cob c = Some cob ->
  (In x (subscribe c subs) <-> In x subs \/ (c_enabled c = true /\ x = cob)).
Proof. exact subscribe_iff_enabled. Qed.

(* read(from_od=True): the DCF value wins over the default ... *)
Theorem C09_dcf_before_default : forall v dflt, od_pick (Some v) dflt = Some v /\ od_pick None dflt = dflt.
Proof. exact dcf_before_default. Qed.

(* ... and a dictionary that holds the encodings yields the configuration *)
Theorem C09_read_from_od : forall od com mp vals c cob tt,
  mp <> com -> cfg_wfb c = true -> od_coversb od c = true ->
  c_cob c = Some cob -> c_tt c = Some tt -> forallb (in_odb (o_objs od)) (c_map c) = true ->
  dict vals com 1 = Some (cob_word c cob) -> dict vals com 2 = Some tt ->
  (forall v, c_inhibit c = Some v -> dict vals com 3 = Some v) ->
  (forall v, c_event c = Some v -> dict vals com 5 = Some v) ->
  (forall v, c_sync c = Some v -> dict vals com 6 = Some v) ->
  dict vals mp 0 = Some (zlen (c_map c)) ->
  (forall j e, nth_error (c_map c) j = Some e -> dict vals mp (1 + Z.of_nat j) = Some (map_word e)) ->
  exists c', read_cfg (od_get od com mp vals) (o_objs od) com mp fresh_cfg [] = Ok (c', subscribe c' []) /\
             same_config c c' cob tt.
Proof. exact read_from_od. Qed.

(* RPDO and TPDO, PDO numbers 1..512: the objects used are the CiA 301 ones, so the theorems above apply
   with com := com_index tpdo n, com + 0x200 = map_index tpdo n. *)
Theorem C09_pdo_indices : forall tpdo n, pdo_number_ok n = true ->
  com_index tpdo n = (if tpdo : bool then 0x1800 else 0x1400) + (n - 1) /\
  map_index tpdo n = com_index tpdo n + 0x200 /\
  is_com (com_index tpdo n) = true /\ is_map (map_index tpdo n) = true.
Proof. exact pdo_indices. Qed.

(* non-vacuity: a TPDO 512, 29-bit COB-ID, RTR not allowed, event driven with all timers, three mapped
   objects (one a record member, one unaligned 3-bit piece), on a device that starts ENABLED with another
   mapping of two objects *)
Definition ex_od : oddesc :=
  mkOd [1; 2; 3; 5; 6] 8 [(0x2000, OVar 8); (0x2001, OVar 16); (0x2100, ORec [(0, 8); (1, 8); (2, 32)])].
Definition ex_dev : device := mkDev [(0x2000, 0, 8); (0x2001, 0, 16); (0x2100, 2, 32)] MODE_STRICT.
Definition ex_cfg : cfg :=
  mkCfg (Some 0x1ABCDEF0) true false (Some 255) (Some 100) (Some 65535) (Some 0)
        [(0x2100, 2, 32); (0x2000, 0, 3); (0x2001, 0, 16)].
Definition ex_com : Z := com_index true 512.
Definition ex_r0 : regs :=
  [((ex_com, 1), 0x000003FF); ((ex_com, 2), 1); ((ex_com, 3), 7); ((ex_com, 5), 9); ((ex_com, 6), 3);
   ((ex_com + 0x200, 0), 2); ((ex_com + 0x200, 1), 0x20010010); ((ex_com + 0x200, 2), 0x20000008);
   ((ex_com + 0x200, 3), 0); ((ex_com + 0x200, 4), 0)].

Example C09_nv_hypotheses :
  pdo_number_ok 512 = true /\ is_com ex_com = true /\ cfg_wfb ex_cfg = true /\ od_coversb ex_od ex_cfg = true /\
  dev_coversb ex_dev ex_r0 ex_com ex_cfg = true /\ forallb (in_odb (o_objs ex_od)) (c_map ex_cfg) = true /\
  pdo_valid ex_r0 ex_com = true /\ rget ex_r0 (ex_com + 0x200) 0 = Some 2.
Proof. vm_compute. repeat split; reflexivity. Qed.

(* what the closed system does on it: 11 writes, all accepted, and the read-back *)
Example C09_nv_run :
  snd (fst (save_io (log_write ex_dev) log_ul ex_od ex_com (ex_com + 0x200) ex_cfg [] (ex_r0, []))) =
    acc [(6655, 1, 3669810928); (6655, 2, 255); (6655, 3, 100); (6655, 5, 65535); (6655, 6, 0);
         (7167, 0, 0); (7167, 1, 553648672); (7167, 2, 536870915); (7167, 3, 536936464); (7167, 0, 3);
         (6655, 1, 1522327280)] /\
  read_cfg (sdo_get ex_od ex_com (ex_com + 0x200)
              (apply_writes ex_r0 (save_writes ex_com (ex_com + 0x200) ex_cfg)))
           (o_objs ex_od) ex_com (ex_com + 0x200) fresh_cfg [] = Ok (ex_cfg, [0x1ABCDEF0]).
Proof. vm_compute. split; reflexivity. Qed.

(* the dictionary-sourced variant: DCF values where present, defaults elsewhere *)
Example C09_nv_from_od :
  read_cfg (od_get ex_od ex_com (ex_com + 0x200)
              [((ex_com, 1), (Some 0x5ABCDEF0, Some 0x80000000)); ((ex_com, 2), (None, Some 255));
               ((ex_com, 3), (Some 100, None)); ((ex_com, 5), (None, Some 65535)); ((ex_com, 6), (Some 0, Some 9));
               ((ex_com + 0x200, 0), (Some 3, Some 0)); ((ex_com + 0x200, 1), (Some 0x21000220, None));
               ((ex_com + 0x200, 2), (None, Some 0x20000003)); ((ex_com + 0x200, 3), (Some 0x20010010, Some 0))])
           (o_objs ex_od) ex_com (ex_com + 0x200) fresh_cfg [] = Ok (ex_cfg, [0x1ABCDEF0]).
Proof. vm_compute. reflexivity. Qed.

(* source-text tie: PdoMap.save / PdoMap.read as translated from the CURRENT source (Gen/SrcC09.v, regenerated
   by tools/tables/src_c09.py on every run) determine the model functions the theorems above are about. *)

(* save(): every value written, expression by expression: the COB-ID word written first (cob | PDO_NOT_VALID | RTR
   bit) and last (cob | RTR bit, only if enabled), each parameter written iff it is not None, the mapping word
   index << 16 | subindex << 8 | length (entry_word) of the entries with sub-indices 1, 2, ... *)
Theorem C09_src_save_values : forall c cob w1 w2 w3 w5 w6 we wl,
  c_cob c = Some cob ->
  src_save_values false cob (c_rtr c) (c_enabled c)
    (osome (c_tt c)) (oget (c_tt c)) (osome (c_inhibit c)) (oget (c_inhibit c))
    (osome (c_event c)) (oget (c_event c)) (osome (c_sync c)) (oget (c_sync c))
    false (c_map c) w1 w2 w3 w5 w6 we wl =
  (Z.lor (Z.lor cob PDO_NOT_VALID) (rtr_bit c),
   oelse (c_tt c) w2, oelse (c_inhibit c) w3, oelse (c_event c) w5, oelse (c_sync c) w6,
   last_entry_word (c_map c) we, 1 + zlen (c_map c),
   if c_enabled c then Z.lor cob (rtr_bit c) else wl).
Proof. exact src_save_values_eq. Qed.

Theorem C09_src_last_entry_word : forall m e d, last_entry_word (m ++ [e]) d = entry_word e.
Proof. exact last_entry_word_app. Qed.

(* save(): the ORDER of the write statements (trace of (index, sub, value)), nothing at all when cob_id is None,
   subscribe() exactly when enabled: the trace is save_writes. *)
Theorem C09_src_save_trace : forall com mp c cw,
  src_save_trace (negb (osome (c_cob c))) com mp
    (Z.lor (Z.lor (oget (c_cob c)) PDO_NOT_VALID) (rtr_bit c)) (oget (c_cob c)) (c_rtr c) (c_enabled c)
    (osome (c_tt c)) (oget (c_tt c)) (osome (c_inhibit c)) (oget (c_inhibit c))
    (osome (c_event c)) (oget (c_event c)) (osome (c_sync c)) (oget (c_sync c))
    false (c_map c) entry_word cw [] false =
  (save_writes com mp c, osome (c_cob c) && c_enabled c).
Proof. exact src_save_trace_eq. Qed.

(* read(): COB-ID & 0x1FFFFFFF, enabled = bit 31 clear, rtr_allowed = bit 30 clear, the timers are read exactly for
   transmission types >= 254 (a failing attempt keeps the old value), subscribe() at the end. *)
Theorem C09_src_read_decode : forall get objs com mp old subs raw1 raw2 c' s',
  get com 1 = Ok (Some raw1) -> get com 2 = Ok (Some raw2) ->
  read_cfg get objs com mp old subs = Ok (c', s') ->
  let '(cob, en, rtr, ty, inh, ev, sy, sub) :=
    src_read_decode raw1 raw2 0
      (after_try (get com 3) (c_inhibit old)) (after_try (get com 5) (c_event old)) (after_try (get com 6) (c_sync old))
      (c_inhibit old) (c_event old) (c_sync old) false in
  c_cob c' = Some cob /\ c_enabled c' = en /\ c_rtr c' = rtr /\ c_tt c' = Some ty /\
  c_inhibit c' = inh /\ c_event c' = ev /\ c_sync c' = sy /\
  s' = (if sub then subscribe c' subs else subs).
Proof. exact src_read_decode_eq. Qed.

(* read(): one pass of the entry loop = one step of read_entries: index = word >> 16, subindex = (word >> 8) & 0xFF,
   size = word & 0x7F, add_variable iff index and size are non-zero. *)
Theorem C09_src_read_entry : forall get objs mp k f m v,
  get mp k = Ok (Some v) ->
  read_entries get objs mp k (S f) m =
  read_entries get objs mp (k + 1) f
    (match src_read_entry v false None with
     | Some (index, subindex, size) => add_variable objs m index subindex (Some size)
     | None => m
     end).
Proof. exact src_read_entry_eq. Qed.

(* read(): _raw_from = DCF value, else default (from_od) / the SDO value *)
Theorem C09_src_raw_from : forall v d raw,
  src_raw_from true v d raw = od_pick v d /\ src_raw_from false v d raw = raw.
Proof. exact src_raw_from_eq. Qed.

Print Assumptions C09_save_accepted_in_order.
Print Assumptions C09_save_order.
Print Assumptions C09_save_encodes.
Print Assumptions C09_read_after_save.
Print Assumptions C09_subscribe_iff_enabled.
Print Assumptions C09_dcf_before_default.
Print Assumptions C09_read_from_od.
Print Assumptions C09_pdo_indices.
Print Assumptions C09_src_save_values.
Print Assumptions C09_src_last_entry_word.
Print Assumptions C09_src_save_trace.
Print Assumptions C09_src_read_decode.
Print Assumptions C09_src_read_entry.
Print Assumptions C09_src_raw_from.
