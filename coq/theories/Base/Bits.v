(* Bit fields of Python ints (Z). *)
From Coq Require Import ZArith Lia Bool.
Open Scope Z_scope.

Definition get_field (w off len : Z) : Z := Z.land (Z.shiftr w off) (Z.ones len).
Definition set_field (old off len v : Z) : Z :=
  Z.lor (Z.land old (Z.lnot (Z.shiftl (Z.ones len) off))) (Z.shiftl (Z.land v (Z.ones len)) off).

Lemma pow_split w : 0 < w -> 2 ^ w = 2 * 2 ^ (w - 1).
Proof. intros. rewrite <- Z.pow_succ_r by lia. f_equal. lia. Qed.

(* the numbers below 2^n are those with no bit at n or above *)
Lemma testbit_small v n i : 0 <= v < 2 ^ n -> n <= i -> Z.testbit v i = false.
Proof.
  intros Hv Hi. assert (0 <= n) by (destruct (Z.neg_nonneg_cases n); [rewrite Z.pow_neg_r in Hv; lia|assumption]).
  rewrite <- (Z.mod_small v (2 ^ n)) by lia. apply Z.mod_pow2_bits_high. lia.
Qed.

Lemma testbit_bound v n : 0 <= n -> (forall i, n <= i -> Z.testbit v i = false) -> 0 <= v < 2 ^ n.
Proof.
  intros Hn H. replace v with (v mod 2 ^ n); [apply Z.mod_pos_bound, Z.pow_pos_nonneg; lia|].
  apply Z.bits_inj'. intros i Hi. rewrite Z.testbit_mod_pow2 by lia.
  destruct (i <? n) eqn:E; [reflexivity|]. symmetry. apply H. lia.
Qed.

(* the top bit of a len-bit number is its sign bit *)
Lemma testbit_top d len : 0 < len -> 0 <= d < 2 ^ len -> Z.testbit d (len - 1) = (2 ^ (len - 1) <=? d).
Proof.
  intros Hl Hd. rewrite (pow_split len Hl) in Hd. rewrite Z.testbit_eqb by lia.
  assert (Hp : 0 < 2 ^ (len - 1)) by (apply Z.pow_pos_nonneg; lia).
  set (x := 2 ^ (len - 1)) in *. destruct (x <=? d) eqn:E.
  - rewrite <- (Z.div_unique d x 1 (d - x)) by lia. reflexivity.
  - rewrite Z.div_small by lia. reflexivity.
Qed.

Lemma land_pow2 s i : 0 <= i -> Z.land s (2 ^ i) = if Z.testbit s i then 2 ^ i else 0.
Proof.
  intros Hi. apply Z.bits_inj'. intros n Hn. rewrite Z.land_spec, Z.pow2_bits_eqb by lia.
  destruct (Z.eqb_spec i n) as [->|Hne].
  - rewrite andb_true_r. destruct (Z.testbit s n) eqn:E; [now rewrite Z.pow2_bits_true|now rewrite Z.bits_0].
  - rewrite andb_false_r. destruct (Z.testbit s i); [now rewrite Z.pow2_bits_false|now rewrite Z.bits_0].
Qed.

(* x below 2^k and y placed above it: the bits of each stay apart *)
Lemma testbit_add_shift x y k i : 0 <= x < 2 ^ k ->
  Z.testbit (x + 2 ^ k * y) i = if i <? k then Z.testbit x i else Z.testbit y (i - k).
Proof.
  intros Hx. assert (0 <= k) by (destruct (Z.neg_nonneg_cases k); [rewrite Z.pow_neg_r in Hx; lia|assumption]).
  rewrite (Z.mul_comm (2 ^ k)). destruct (i <? k) eqn:E.
  - rewrite <- (Z.mod_pow2_bits_low (x + y * 2 ^ k) k i), Z.mod_add, Z.mod_small by lia. reflexivity.
  - replace i with ((i - k) + k) at 1 by lia.
    rewrite <- Z.div_pow2_bits, Z.div_add, Z.div_small by lia. reflexivity.
Qed.

(* the mask of the field [off, off+len) *)
Lemma mask_spec off len i : 0 <= len -> 0 <= i ->
  Z.testbit (Z.shiftl (Z.ones len) off) i = (off <=? i) && (i <? off + len).
Proof.
  intros Hl Hi. rewrite Z.shiftl_spec by lia. destruct (off <=? i) eqn:E.
  - rewrite Z.testbit_ones_nonneg by lia. cbn [andb]. lia.
  - apply Z.testbit_neg_r. lia.
Qed.

Lemma get_field_spec w off len i : 0 <= len -> 0 <= i ->
  Z.testbit (get_field w off len) i = if i <? len then Z.testbit w (i + off) else false.
Proof.
  intros Hl Hi. unfold get_field. rewrite Z.land_spec, Z.shiftr_spec, Z.testbit_ones_nonneg by lia.
  destruct (i <? len); [apply andb_true_r|apply andb_false_r].
Qed.

Lemma get_field_range w off len : 0 <= len -> 0 <= get_field w off len < 2 ^ len.
Proof.
  intros Hl. unfold get_field. rewrite Z.land_ones by lia. apply Z.mod_pos_bound.
  apply Z.pow_pos_nonneg; lia.
Qed.

Lemma set_field_spec old off len v i : 0 <= len -> 0 <= i ->
  Z.testbit (set_field old off len v) i =
  if (off <=? i) && (i <? off + len) then Z.testbit v (i - off) else Z.testbit old i.
Proof.
  intros Hl Hi. unfold set_field.
  rewrite Z.shiftl_land, Z.lor_spec, !Z.land_spec, Z.lnot_spec, mask_spec, Z.shiftl_spec by lia.
  destruct ((off <=? i) && (i <? off + len)); cbn [negb].
  - now rewrite andb_false_r, andb_true_r.
  - now rewrite andb_true_r, andb_false_r, orb_false_r.
Qed.

Lemma get_set old off len v : 0 <= off -> 0 <= len ->
  get_field (set_field old off len v) off len = Z.land v (Z.ones len).
Proof.
  intros. apply Z.bits_inj'. intros i Hi.
  rewrite get_field_spec, Z.land_spec, Z.testbit_ones_nonneg by lia.
  destruct (i <? len) eqn:E; [|now rewrite andb_false_r].
  rewrite set_field_spec by lia. replace ((off <=? i + off) && (i + off <? off + len)) with true by lia.
  rewrite andb_true_r. f_equal. lia.
Qed.

Lemma get_set_small old off len v : 0 <= off -> 0 <= len -> 0 <= v < 2 ^ len ->
  get_field (set_field old off len v) off len = v.
Proof. intros. rewrite get_set, Z.land_ones, Z.mod_small by lia. reflexivity. Qed.

Lemma get_set_other old off len v off' len' : 0 <= len -> 0 <= off' -> 0 <= len' ->
  off' + len' <= off \/ off + len <= off' ->
  get_field (set_field old off len v) off' len' = get_field old off' len'.
Proof.
  intros Hl Ho' Hl' Hd. apply Z.bits_inj'. intros i Hi.
  rewrite !get_field_spec by lia.
  destruct (i <? len') eqn:E; [|reflexivity].
  rewrite set_field_spec by lia.
  destruct ((off <=? i + off') && (i + off' <? off + len)) eqn:C; [lia|reflexivity].
Qed.

Lemma set_field_mod old off len v w : 0 <= len <= w ->
  set_field old off len (v mod 2 ^ w) = set_field old off len v.
Proof.
  intros Hw. unfold set_field. do 2 f_equal.
  apply Z.bits_inj'. intros i Hi. rewrite !Z.land_spec, Z.testbit_mod_pow2, Z.testbit_ones_nonneg by lia.
  destruct (i <? len) eqn:E; [|now rewrite !andb_false_r]. now replace (i <? w) with true by lia.
Qed.

Lemma set_field_nonneg old off len v : 0 <= old -> 0 <= len -> 0 <= set_field old off len v.
Proof.
  intros. unfold set_field. apply Z.lor_nonneg. split.
  - apply Z.land_nonneg. now left.
  - apply Z.shiftl_nonneg. apply Z.land_nonneg. right. rewrite Z.ones_equiv. pose proof (Z.pow_pos_nonneg 2 len); lia.
Qed.

Lemma set_field_bound old off len v n : 0 <= old < 2 ^ n -> 0 <= off -> 0 <= len -> off + len <= n ->
  0 <= set_field old off len v < 2 ^ n.
Proof.
  intros Hold Ho Hl Hn. apply testbit_bound; [lia|]. intros i Hi.
  rewrite set_field_spec by lia. replace ((off <=? i) && (i <? off + len)) with false by lia.
  now apply (testbit_small old n).
Qed.

Lemma land_lxor_distr a b m : Z.land (Z.lxor a b) m = Z.lxor (Z.land a m) (Z.land b m).
Proof. apply Z.bits_inj'. intros n _. rewrite Z.land_spec, !Z.lxor_spec, !Z.land_spec. now destruct (Z.testbit a n), (Z.testbit b n), (Z.testbit m n). Qed.

(* the field of [len] bits at [off], masked in place *)
Lemma land_field c off len : 0 <= off -> 0 <= len ->
  Z.land c (Z.shiftl (Z.ones len) off) = 2 ^ off * ((c / 2 ^ off) mod 2 ^ len).
Proof.
  intros Ho Hl. rewrite <- Z.shiftr_div_pow2, <- Z.land_ones, Z.mul_comm, <- Z.shiftl_mul_pow2 by lia.
  apply Z.bits_inj'. intros n Hn. rewrite Z.land_spec. destruct (Z.lt_ge_cases n off).
  - rewrite !Z.shiftl_spec_low by lia. apply andb_false_r.
  - rewrite !Z.shiftl_spec, Z.land_spec, Z.shiftr_spec by lia. replace (n - off + off) with n by lia. reflexivity.
Qed.

Lemma land_ones_small v len : 0 <= len -> 0 <= v < 2 ^ len -> Z.land v (Z.ones len) = v.
Proof. intros. rewrite Z.land_ones by lia. apply Z.mod_small; lia. Qed.

Lemma land_127 a : Z.land a 127 = a mod 128.
Proof. exact (Z.land_ones a 7 ltac:(lia)). Qed.
