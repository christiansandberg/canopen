(* C02 / C06: the SDO server (Model/SdoServer.v) against the reference client (Model/RefClient.v).
   The frames of a conformant transfer are named once, with what a peer reads in them; each handler of the server
   gets one equation in those frames; a transfer is an induction along the client's loop; one well-formed
   response per request is an invariant proved handler by handler. *)
From Coq Require Import ZArith List Bool Lia.
From CV Require Import Base.Val Base.Bits Base.Bytes Base.Tys Gen.Tables Gen.SdoTables Model.Codec Model.RefClient Model.SdoServer.
Import ListNotations.
Open Scope Z_scope.

Arguments le_decode : simpl never.

(* the bit fields the server masks out of a command byte, in arithmetic *)
Lemma cmd_ccs c : 0 <= c < 256 -> Z.land c 224 = 32 * (c / 32).
Proof. intros Hc. transitivity (32 * ((c / 32) mod 8)); [apply (land_field c 5 3); lia|Z.div_mod_to_equations; lia]. Qed.

Lemma ccs_cases c : 0 <= c < 256 ->
  c / 32 = 0 \/ c / 32 = 1 \/ c / 32 = 2 \/ c / 32 = 3 \/ c / 32 = 4 \/ c / 32 = 5 \/ c / 32 = 6 \/ c / 32 = 7.
Proof. intros Hc. Z.div_mod_to_equations. lia. Qed.

Lemma cmd_toggle c : Z.land c 16 = 16 * ((c / 16) mod 2).
Proof. apply (land_field c 4 1); lia. Qed.

Lemma cmd_last c : Z.land c 1 = c mod 2.
Proof. exact (Z.land_ones c 1 Z.le_0_1). Qed.

Lemma cmd_unused c : Z.land (Z.shiftr c 1) 7 = (c / 2) mod 8.
Proof. rewrite Z.shiftr_div_pow2 by lia. apply (Z.land_ones (c / 2 ^ 1) 3). lia. Qed.

(* the command byte of a segment, request or response: toggle t, n unused bytes, last flag b *)
Lemma seg_cmd_fields t n (b : bool) : t = 0 \/ t = 1 -> 0 <= n <= 7 ->
  let c := 16 * t + 2 * n + (if b then 1 else 0) in
  0 <= c < 128 /\ c / 32 = 0 /\ (c / 16) mod 2 = t /\ (c / 2) mod 8 = n /\ c mod 2 = (if b then 1 else 0).
Proof.
  intros Ht Hn. assert (He : 0 <= (if b then 1 else 0) <= 1) by (destruct b; lia).
  (* lia is far cheaper on an unknown flag in 0..1, one conjunct at a time, than on the two values of b *)
  revert He. generalize (if b then 1 else 0). intros e He. cbv zeta. repeat split; Z.div_mod_to_equations; lia.
Qed.

Lemma le2_recombine x : 0 <= x < 65536 -> x mod 256 + 256 * ((x / 256) mod 256) = x.
Proof. intros Hx. Z.div_mod_to_equations. lia. Qed.

(* the two index bytes of a frame under names of their own *)
Lemma mux_bytes_split idx sub : 0 <= idx < 65536 -> exists lo hi, mux_bytes idx sub = [lo; hi; sub] /\ lo + 256 * hi = idx.
Proof. intros Hi. exists (idx mod 256), ((idx / 256) mod 256). split; [reflexivity|exact (le2_recombine idx Hi)]. Qed.

Lemma all_zero_repeat n : all_zero (repeat 0 n) = true.
Proof. induction n; cbn; auto. Qed.

(* the frames of a conformant transfer; the client matches on eight literal bytes, hence the parse lemmas below *)
Definition init_frame (idx sub : Z) (data : list Z) : frame :=
  let n := zlen data in
  if (0 <? n) && (n <=? 4) then (67 + 4 * (4 - n)) :: mux_bytes idx sub ++ data ++ repeat 0 (4 - length data)
  else 65 :: mux_bytes idx sub ++ le_encode 4 n.

Definition dl_ack (idx sub : Z) : frame := 96 :: mux_bytes idx sub ++ [0; 0; 0; 0].

Definition seg_ack (t : Z) : frame := [32 + 16 * t; 0; 0; 0; 0; 0; 0; 0].

Definition seg_req (t : Z) (chunk : list Z) (last : bool) : frame :=
  (16 * t + 2 * (7 - zlen chunk) + (if last then 1 else 0)) :: chunk ++ repeat 0 (7 - length chunk).

Definition is_nil {A} (l : list A) : bool := match l with [] => true | _ => false end.

Lemma is_nil_spec {A} (l : list A) : if is_nil l then l = [] else (1 <= length l)%nat.
Proof. destruct l; cbn; [reflexivity|lia]. Qed.

Lemma upload_frames_eq idx sub data :
  upload_frames idx sub data =
    init_frame idx sub data ::
    (if (0 <? zlen data) && (zlen data <=? 4) then [] else seg_frames (S (length data)) 0 data).
Proof. unfold upload_frames, init_frame. destruct ((0 <? zlen data) && (zlen data <=? 4)); reflexivity. Qed.

Lemma seg_resp_parse t data last : (length data <= 7)%nat -> t = 0 \/ t = 1 ->
  exists c d1 d2 d3 d4 d5 d6 d7, seg_resp t data last = [c; d1; d2; d3; d4; d5; d6; d7] /\
    (c =? 128) = false /\ c / 32 = 0 /\ (c / 16) mod 2 = t /\ (c mod 2 =? 1) = last /\
    let k := Z.to_nat (7 - (c / 2) mod 8) in
    firstn k [d1; d2; d3; d4; d5; d6; d7] = data /\ all_zero (skipn k [d1; d2; d3; d4; d5; d6; d7]) = true.
Proof.
  intros Hl Ht.
  assert (exists d1 d2 d3 d4 d5 d6 d7, data ++ repeat 0 (7 - length data) = [d1; d2; d3; d4; d5; d6; d7])
    as (d1 & d2 & d3 & d4 & d5 & d6 & d7 & E)
    by (do 8 (destruct data as [|? data]; [repeat eexists|]); cbn [length] in Hl; lia).
  destruct (seg_cmd_fields t (7 - zlen data) last Ht) as (F1 & F2 & F3 & F4 & F5); [unfold zlen; lia|].
  eexists _, d1, d2, d3, d4, d5, d6, d7. unfold seg_resp. rewrite E, F4, F5.
  replace (Z.to_nat (7 - (7 - zlen data))) with (length data) by (unfold zlen; lia). rewrite <- E.
  repeat split; [lia|exact F2|exact F3|destruct last; reflexivity|now apply firstn_app_exact|].
  rewrite skipn_app, skipn_all, Nat.sub_diag. apply all_zero_repeat.
Qed.

Lemma exp_frame_parse idx sub data : (0 <? zlen data) && (zlen data <=? 4) = true ->
  exists c d0 d1 d2 d3, init_frame idx sub data = c :: mux_bytes idx sub ++ [d0; d1; d2; d3] /\
    (c =? 128) = false /\ c / 32 = 2 /\ (c / 16) mod 2 = 0 /\ (c / 2) mod 2 = 1 /\ c mod 2 = 1 /\
    let k := Z.to_nat (4 - (c / 4) mod 4) in
    firstn k [d0; d1; d2; d3] = data /\ all_zero (skipn k [d0; d1; d2; d3]) = true.
Proof.
  intros Hn. unfold init_frame. rewrite Hn.
  destruct data as [|a0 [|a1 [|a2 [|a3 [|a4 r]]]]]; try (exfalso; unfold zlen in Hn; cbn [length] in Hn; lia);
    do 5 eexists; repeat split.
Qed.

Lemma one_resp_8 a b c d e f g h : one_resp [[a; b; c; d; e; f; g; h]] false = Some [a; b; c; d; e; f; g; h].
Proof. reflexivity. Qed.

(* the answer to a download step that ran set_data's checks with result [r] *)
Definition reply_of {A} (r : res A) (ack : frame) (idx sub : Z) : frame :=
  match r with Abort c => abort_frame_of idx sub c | _ => ack end.

(* one round of the reference client against any server whose answer is known *)
Section ClientRounds.
  Context {St : Type} (step : St -> frame -> St * list frame * bool) (idx sub : Z) (Hi : 0 <= idx < 65536).

  Lemma read_abort code : 0 <= code < 2 ^ 32 ->
    exists b1 b2 b3 c0 c1 c2 c3, one_resp [abort_frame_of idx sub code] false = Some [128; b1; b2; b3; c0; c1; c2; c3] /\
      abort_result idx sub b1 b2 b3 c0 c1 c2 c3 = Abort code.
  Proof.
    intros Hc. do 7 eexists. split; [reflexivity|]. unfold abort_result.
    rewrite le2_recombine, !Z.eqb_refl by exact Hi. cbn [andb]. f_equal. exact (le_decode_encode_small 4 code Hc).
  Qed.

  Lemma ref_upload_abort {fuel s s1 code} : 0 <= code < 2 ^ 32 ->
    step s (upload_request idx sub) = (s1, [abort_frame_of idx sub code], false) ->
    ref_upload step fuel s idx sub = (s1, Abort code, [abort_frame_of idx sub code]).
  Proof.
    intros Hc Hs. unfold ref_upload. rewrite Hs. destruct (read_abort code Hc) as (b1 & b2 & b3 & c0 & c1 & c2 & c3 & -> & A).
    cbn [Z.eqb Pos.eqb]. rewrite A. reflexivity.
  Qed.

  Lemma ref_upload_expedited {fuel s s1 data} : (0 <? zlen data) && (zlen data <=? 4) = true ->
    step s (upload_request idx sub) = (s1, [init_frame idx sub data], false) ->
    ref_upload step fuel s idx sub = (s1, Ok data, [init_frame idx sub data]).
  Proof.
    intros Hn Hs. unfold ref_upload. rewrite Hs.
    destruct (exp_frame_parse idx sub data Hn) as (c & d0 & d1 & d2 & d3 & -> & F1 & F2 & F3 & F4 & F5 & F6 & F7).
    unfold mux_bytes. cbn [app]. rewrite one_resp_8. cbv beta iota zeta.
    rewrite F1, F2, F3, F4, F5, F6, F7, le2_recombine, !Z.eqb_refl by exact Hi. reflexivity.
  Qed.

  Lemma ref_upload_segmented {fuel s s1 data} : (0 <? zlen data) && (zlen data <=? 4) = false -> zlen data < 2 ^ 32 ->
    step s (upload_request idx sub) = (s1, [init_frame idx sub data], false) ->
    ref_upload step fuel s idx sub = ul_loop step fuel s1 idx sub 0 [] (Some (zlen data)) [init_frame idx sub data].
  Proof.
    intros E Hn Hs. unfold ref_upload. rewrite Hs. unfold init_frame, mux_bytes. rewrite E. cbn [app le_encode].
    rewrite one_resp_8. cbn. rewrite le2_recombine by exact Hi. rewrite !Z.eqb_refl. cbn.
    pose proof (le_decode_encode_small 4 (zlen data) (conj (zlen_nonneg data) Hn)) as L. cbn [le_encode] in L. rewrite L. reflexivity.
  Qed.

  Lemma ul_round {f s s1 t acc sz tr data last} :
    step s (segment_request t) = (s1, [seg_resp t data last], false) ->
    (length data <= 7)%nat -> (t = 0 \/ t = 1) ->
    ul_loop step (S f) s idx sub t acc (Some sz) tr =
      let acc1 := acc ++ data in
      let tr1 := tr ++ [seg_resp t data last] in
      if (sz <? zlen acc1) || negb (Bool.eqb last (zlen acc1 =? sz)) then (s1, Err V_SIZE, tr1)
      else if last then (s1, Ok acc1, tr1)
      else ul_loop step f s1 idx sub (1 - t) acc1 (Some sz) tr1.
  Proof.
    intros Hs Hl Ht. cbn [ul_loop]. rewrite Hs.
    destruct (seg_resp_parse t data last Hl Ht) as (c & d1 & d2 & d3 & d4 & d5 & d6 & d7 & -> & F1 & F2 & F3 & F4 & F5 & F6).
    rewrite one_resp_8. cbv beta iota zeta. rewrite F1, F2, F3, F4, F5, F6, !Z.eqb_refl. reflexivity.
  Qed.

  Lemma dl_round {A} (r : res A) {f s s1 t rest tr chunk last} :
    (forall c, r = Abort c -> 0 <= c < 2 ^ 32) -> (t = 0 \/ t = 1) ->
    firstn 7 rest = chunk -> is_nil (skipn 7 rest) = last ->
    step s (seg_req t chunk last) = (s1, [reply_of r (seg_ack t) idx sub], false) ->
    dl_loop step (S f) s idx sub t rest tr =
      let tr1 := tr ++ [reply_of r (seg_ack t) idx sub] in
      match r with
      | Abort c => (s1, Abort c, tr1)
      | _ => if last then (s1, Ok [], tr1) else dl_loop step f s1 idx sub (1 - t) (skipn 7 rest) tr1
      end.
  Proof.
    intros Hc Ht <- <- Hs. cbn [dl_loop]. unfold seg_req, is_nil in Hs. rewrite Hs.
    destruct r as [a|k|c]; cbn [reply_of]; [destruct Ht as [-> | ->]; reflexivity..|].
    destruct (read_abort c (Hc c eq_refl)) as (b1 & b2 & b3 & c0 & c1 & c2 & c3 & -> & E).
    cbn [Z.eqb Pos.eqb]. rewrite E. reflexivity.
  Qed.

  Lemma ref_download_reply {A} (r : res A) {fuel s s1 data mode req} :
    (forall c, r = Abort c -> 0 <= c < 2 ^ 32) ->
    download_request idx sub data mode = Some req ->
    step s req = (s1, [reply_of r (dl_ack idx sub) idx sub], false) ->
    ref_download step fuel s idx sub data mode =
      match r with
      | Abort c => (s1, Abort c, [abort_frame_of idx sub c])
      | _ => if mode <? 2 then (s1, Ok [], [dl_ack idx sub]) else dl_loop step fuel s1 idx sub 0 data [dl_ack idx sub]
      end.
  Proof.
    intros Hc Hr Hs. unfold ref_download. rewrite Hr, Hs.
    destruct r as [a|k|c]; cbn [reply_of].
    3:{ destruct (read_abort c (Hc c eq_refl)) as (b1 & b2 & b3 & c0 & c1 & c2 & c3 & -> & E).
        cbn [Z.eqb Pos.eqb]. rewrite E. reflexivity. }
    all: unfold dl_ack, mux_bytes; cbn [app]; rewrite one_resp_8; cbn; rewrite le2_recombine by exact Hi;
      rewrite !Z.eqb_refl; reflexivity.
  Qed.
End ClientRounds.

(* encode_raw raises or returns bytes; it never produces an SDO abort *)
Definition no_abort {A} (r : res A) : Prop := match r with Abort _ => False | _ => True end.

Lemma rbind_no_abort {A B} (r : res A) (f : A -> res B) :
  no_abort r -> (forall a, no_abort (f a)) -> no_abort (rbind r f).
Proof. destruct r; cbn; auto. Qed.

Lemma pack_no_abort p v : no_abort (pack p v).
Proof.
  assert (S : forall s w z, no_abort (pack_struct s w z)) by (intros; unfold pack_struct; destruct (in_range s w z); exact I).
  assert (N : forall s w z, no_abort (packN s w z)).
  { intros. apply rbind_no_abort; [apply S|]. intros bs. destruct (in_range s w z); exact I. }
  destruct p, v; cbn [pack]; try exact I; auto.
Qed.

Lemma utf16_units_no_abort s : no_abort (utf16_units s).
Proof.
  induction s as [|x r IH]; [exact I|]. apply rbind_no_abort; [exact IH|]. intros us.
  destruct ((x <? 0) || (1114112 <=? x) || is_hi x || is_lo x); [exact I|]. destruct (x <? 65536); exact I.
Qed.

Lemma encode_typed_no_abort t x (a u : res (list Z)) : no_abort a -> no_abort u ->
  no_abort (if t =? dt_VISIBLE_STRING then a else if t =? dt_UNICODE_STRING then u
            else if (t =? dt_DOMAIN) || (t =? dt_OCTET_STRING) then Err E_TYPE
            else match zassoc t STRUCT_TYPES with
                 | Some p => match pack p x with Err k => if k =? E_STRUCT then Err E_VALUE else Err k | r => r end
                 | None => Err E_TYPE
                 end).
Proof.
  intros Ha Hu. destruct (t =? dt_VISIBLE_STRING); [exact Ha|]. destruct (t =? dt_UNICODE_STRING); [exact Hu|].
  destruct ((t =? dt_DOMAIN) || (t =? dt_OCTET_STRING)); [exact I|]. destruct (zassoc t STRUCT_TYPES) as [p|]; [|exact I].
  pose proof (pack_no_abort p x) as P. destruct (pack p x) as [b|k|c]; [exact I|destruct (k =? E_STRUCT); exact I|exact P].
Qed.

Lemma encode_raw_no_abort dt x : no_abort (encode_raw dt x).
Proof.
  unfold encode_raw. destruct x as [z|b|s|f]; try exact I; (destruct dt as [t|]; [|exact I]); apply encode_typed_no_abort; try exact I.
  - unfold ascii_encode. destruct (forallb _ s); exact I.
  - apply rbind_no_abort; [apply utf16_units_no_abort|intros us; exact I].
Qed.

Lemma seg_frames_fuel f1 : forall f2 t buf, (length buf <= 7 * f1)%nat -> (length buf <= 7 * f2)%nat ->
  (1 <= f1)%nat -> (1 <= f2)%nat -> seg_frames f1 t buf = seg_frames f2 t buf.
Proof.
  induction f1 as [|f1 IH]; intros f2 t buf H1 H2 G1 G2; [lia|].
  destruct f2 as [|f2]; [lia|]. cbn [seg_frames].
  pose proof (skipn_length 7 buf) as L. destruct (skipn 7 buf) as [|x r]; [reflexivity|].
  cbn [length] in L. f_equal. apply IH; cbn [length]; lia.
Qed.

(* the rules of RefClient.v for one well-formed response, on the frames above *)
Lemma mux_eqb_refl m : mux_eqb m m = true.
Proof. unfold mux_eqb. rewrite !Z.eqb_refl. reflexivity. Qed.

Lemma next_mux_short cur c rest : frame_mux (c :: rest) = None -> next_mux cur (c :: rest) = cur.
Proof. intros H. unfold next_mux. rewrite H. destruct (initiating (c / 32)); reflexivity. Qed.

Lemma next_mux_init cur c lo hi sub r' : initiating (c / 32) = true ->
  next_mux cur (c :: lo :: hi :: sub :: r') = (lo + 256 * hi, sub).
Proof. intros H. unfold next_mux. rewrite H. reflexivity. Qed.

Lemma next_mux_other cur c rest : initiating (c / 32) = false -> next_mux cur (c :: rest) = cur.
Proof. intros H. unfold next_mux. rewrite H. reflexivity. Qed.

Lemma next_mux_permissive cur req : permissive_mux cur req (next_mux cur req) = true.
Proof.
  unfold permissive_mux, next_mux. destruct req as [|c rest]; [rewrite mux_eqb_refl; reflexivity|].
  destruct (initiating (c / 32)), (frame_mux (c :: rest)); rewrite mux_eqb_refl, ?orb_true_r; reflexivity.
Qed.

Lemma wf_init_frame cur c lo hi sub rest' data :
  (c / 32 = 2 \/ c / 32 = 5) -> 0 <= lo + 256 * hi < 65536 ->
  resp_wf cur (c :: lo :: hi :: sub :: rest') [init_frame (lo + 256 * hi) sub data] false = true.
Proof.
  intros K Ri. set (idx := lo + 256 * hi) in *.
  assert (Hm : mux_eqb (idx mod 256 + 256 * ((idx / 256) mod 256), sub) (idx, sub) = true)
    by (rewrite le2_recombine by exact Ri; apply mux_eqb_refl).
  destruct ((0 <? zlen data) && (zlen data <=? 4)) eqn:E.
  - destruct (exp_frame_parse idx sub data E) as (rc & d0 & d1 & d2 & d3 & -> & F1 & F2 & F3 & F4 & F5 & F6 & F7).
    unfold resp_wf, mux_bytes. cbn [app frame_mux negb andb]. cbv zeta. fold idx.
    rewrite F1, F2, F3, F4, F5, F7, Hm. destruct K as [-> | ->]; reflexivity.
  - unfold init_frame, resp_wf, mux_bytes. rewrite E. cbn [app le_encode frame_mux negb andb]. cbv zeta. fold idx.
    rewrite Hm. destruct K as [-> | ->]; reflexivity.
Qed.

Lemma wf_seg_resp cur c rest t data last :
  c / 32 = 3 -> (c / 16) mod 2 = t -> (length data <= 7)%nat -> (t = 0 \/ t = 1) ->
  resp_wf cur (c :: rest) [seg_resp t data last] false = true.
Proof.
  intros K T Hl Ht.
  destruct (seg_resp_parse t data last Hl Ht) as (rc & d1 & d2 & d3 & d4 & d5 & d6 & d7 & -> & F1 & F2 & F3 & _ & _ & F6).
  unfold resp_wf. rewrite K, T. cbv zeta. rewrite F1, F2, F3, F6, !Z.eqb_refl. reflexivity.
Qed.

Lemma wf_dl_ack cur c lo hi sub rest' :
  c / 32 = 1 -> 0 <= lo + 256 * hi < 65536 ->
  resp_wf cur (c :: lo :: hi :: sub :: rest') [dl_ack (lo + 256 * hi) sub] false = true.
Proof.
  intros K Ri. unfold resp_wf, dl_ack, mux_bytes. rewrite K. cbn [app frame_mux negb andb]. cbv zeta.
  rewrite le2_recombine, mux_eqb_refl by exact Ri. reflexivity.
Qed.

Lemma wf_seg_ack cur c rest tg :
  c / 32 = 0 -> (tg = 0 \/ tg = 16) -> 16 * ((c / 16) mod 2) = tg ->
  resp_wf cur (c :: rest) [[Z.lor RESPONSE_SEGMENT_DOWNLOAD tg; 0; 0; 0; 0; 0; 0; 0]] false = true.
Proof.
  intros K Htg T. unfold resp_wf. rewrite K. replace ((c / 16) mod 2) with (tg / 16) by (Z.div_mod_to_equations; lia).
  destruct Htg as [-> | ->]; reflexivity.
Qed.

Lemma bytes_ok_cons a l : bytes_ok (a :: l) -> 0 <= a < 256 /\ bytes_ok l.
Proof. intros H. inversion H; subst. split; assumption. Qed.

(* a frame of bytes is too short for SDO_STRUCT or carries a multiplexer in range *)
Lemma unpack_mux_cases c rest : bytes_ok rest ->
  unpack_mux (c :: rest) = Err E_STRUCT /\ frame_mux (c :: rest) = None \/
  exists lo hi sub r', rest = lo :: hi :: sub :: r' /\ 0 <= lo + 256 * hi < 65536 /\ 0 <= sub < 256.
Proof.
  intros Hr. destruct rest as [|lo [|hi [|sub r']]]; try (left; split; reflexivity).
  apply bytes_ok_cons in Hr as (Hlo & Hr). apply bytes_ok_cons in Hr as (Hhi & Hr). apply bytes_ok_cons in Hr as (Hsub & _).
  right. exists lo, hi, sub, r'. split; [reflexivity|]. split; [lia|exact Hsub].
Qed.

Section Server.
  Context (d : dict) (rcb : Z -> Z -> option pyval).
  Notation on_req := (on_request d rcb).

  (* the node's data is as before: only the protocol variables (buffer, toggle, multiplexer) may differ *)
  Definition same_node (st st' : sstate) : Prop :=
    s_store st' = s_store st /\ s_log st' = s_log st /\ s_lasterr st' = s_lasterr st.

  Definition cur_of (st : sstate) : Z * Z := (s_index st, s_sub st).

  Lemma find_object_cases i s :
    (exists v, find_object d i s = Ok v) \/ find_object d i s = Abort AB_NOOBJECT \/ find_object d i s = Abort AB_NOSUB.
  Proof.
    unfold find_object.
    destruct (zassoc i d) as [[v|subs|subs]|]; [destruct (s =? 0)|destruct (zassoc s subs)|destruct (zassoc s subs)|]; eauto.
    destruct ((0 <? s) && (s <? 256)); [destruct (zassoc 1 subs)|]; eauto.
  Qed.

  Lemma find_object_not_err i s k : find_object d i s <> Err k.
  Proof. destruct (find_object_cases i s) as [(v & ->) | [-> | ->]]; discriminate. Qed.

  Lemma check_set_cases i s data chk :
    (exists v, check_set d i s data chk = Ok v) \/ (exists c, check_set d i s data chk = Abort c /\ 0 <= c < 2 ^ 32).
  Proof.
    unfold check_set.
    destruct (find_object_cases i s) as [(v & ->) | [-> | ->]]; cbn [rbind]; [|right; eexists; split; [reflexivity|easy]..].
    destruct (chk && negb (writable v)); [right; eexists; split; [reflexivity|easy]|].
    destruct (is_number v && negb (8 * zlen data =? len_bits (v_dt v))); [right; eexists; split; [reflexivity|easy]|eauto].
  Qed.

  Lemma check_set_not_err i s data chk k : check_set d i s data chk <> Err k.
  Proof. destruct (check_set_cases i s data chk) as [(v & ->) | (c & -> & _)]; discriminate. Qed.

  Lemma check_set_abort_range i s data chk c : check_set d i s data chk = Abort c -> 0 <= c < 2 ^ 32.
  Proof. destruct (check_set_cases i s data chk) as [(v & ->) | (c' & -> & R)]; [discriminate|intros [= <-]; exact R]. Qed.

  Lemma check_set_ok i s data v :
    find_object d i s = Ok v -> writable v = true -> length_ok v data = true -> check_set d i s data true = Ok v.
  Proof.
    intros F W L. unfold check_set. rewrite F. cbn [rbind]. rewrite W. cbn [negb andb].
    unfold length_ok in L. destruct (is_number v); cbn [negb orb] in L; cbn [andb]; [rewrite L|]; reflexivity.
  Qed.

  (* get_data at most appends to the log *)
  Lemma get_data_keeps st i s chk st' r : get_data d rcb st i s chk = (st', r) ->
    (mux_inv st -> mux_inv st') /\ cur_of st' = cur_of st /\ match r with Abort c => 0 <= c < 2 ^ 32 | _ => True end.
  Proof.
    assert (E : forall dt x, match encode_raw dt x with Abort c => 0 <= c < 2 ^ 32 | _ => True end).
    { intros dt x. pose proof (encode_raw_no_abort dt x) as N. destruct (encode_raw dt x); [exact I|exact I|destruct N]. }
    unfold get_data. destruct (find_object_cases i s) as [(v & ->) | [-> | ->]];
      [destruct (chk && negb (readable v)); [|destruct (rcb i s); [|destruct (store_get (s_store st) i s);
         [|destruct (v_value v); [|destruct (v_default v)]]]]|..];
      intros [= <- <-]; (split; [exact (fun M => M)|split; [reflexivity|first [easy|apply E]]]).
  Qed.

  Lemma get_data_supplies st idx sub v data :
    find_object d idx sub = Ok v -> readable v = true -> supplies rcb st idx sub v data ->
    get_data d rcb st idx sub true = (log_ev st (EvR idx sub), Ok data).
  Proof.
    intros F R Sp. unfold get_data. rewrite F, R. cbn [negb andb].
    destruct Sp as [(r & -> & ->) | [(-> & ->) | [(-> & -> & x & -> & ->) | (-> & -> & -> & x & -> & ->)]]]; reflexivity.
  Qed.

  Lemma set_data_cases st i s data chk :
    set_data d st i s data chk = (store_put (log_ev st (EvW i s data)) i s data, Ok tt) \/
    exists c, 0 <= c < 2 ^ 32 /\ set_data d st i s data chk = (st, Abort c).
  Proof.
    unfold set_data. destruct (check_set_cases i s data chk) as [(v & ->) | (c & -> & R)]; eauto.
  Qed.

  Lemma abort_frame_eq st code : 0 <= s_index st < 65536 -> 0 <= s_sub st < 256 -> 0 <= code < 2 ^ 32 ->
    abort_frame st code = Some (abort_frame_of (s_index st) (s_sub st) code).
  Proof.
    unfold abort_frame. intros [H1 H2] [H3 H4] [H5 H6].
    apply Z.leb_le in H1, H3, H5. apply Z.ltb_lt in H2, H4, H6. rewrite H1, H2, H3, H4, H5, H6. reflexivity.
  Qed.

  Lemma do_abort_eq st code : 0 <= s_index st < 65536 -> 0 <= s_sub st < 256 -> 0 <= code < 2 ^ 32 ->
    do_abort st code = (st, [abort_frame_of (s_index st) (s_sub st) code], false).
  Proof. intros H1 H2 H3. unfold do_abort. rewrite abort_frame_eq by assumption. reflexivity. Qed.

  (* SdoServer.on_request: the handler chosen by command & 0xE0, then the response it returned, or abort() with
     what it raised *)
  Definition respond (x : sstate * res (list frame)) : sstate * list frame * bool :=
    let '(st1, r) := x in
    match r with
    | Ok rs => (st1, rs, false)
    | Abort c => do_abort st1 c
    | Err k => do_abort st1 (if k =? E_KEY then AB_NOOBJECT else AB_GENERAL)
    end.

  Definition handle (st : sstate) (c : Z) (req : frame) : sstate * res (list frame) :=
    match c / 32 with
    | 0 => segmented_download d st c req
    | 1 => init_download d st req
    | 2 | 5 => init_upload d rcb st req
    | 3 => segmented_upload st c
    | 4 => request_aborted st req
    | _ => (st, Abort AB_COMMAND)
    end.

  Lemma on_request_eq st c rest : 0 <= c < 256 -> on_req st (c :: rest) = respond (handle st c (c :: rest)).
  Proof.
    intros Hc. unfold on_request, handle. cbv zeta. rewrite (cmd_ccs c Hc).
    pose proof (ccs_cases c Hc) as K.
    destruct K as [K | [K | [K | [K | [K | [K | [K | K]]]]]]]; rewrite K; reflexivity.
  Qed.

  Definition upload_reply (idx sub : Z) (x : sstate * res (list Z)) : sstate * res (list frame) :=
    let '(st2, r) := x in
    match r with
    | Ok data =>
        if (0 <? zlen data) && (zlen data <=? 4) then (st2, Ok [init_frame idx sub data])
        else if zlen data <? 2 ^ 32 then (set_buf st2 (Some data) 0, Ok [init_frame idx sub data])
        else (st2, Err E_STRUCT)
    | Err k => (st2, Err k)
    | Abort c => (st2, Abort c)
    end.

  Lemma init_upload_eq st c lo hi sub r' :
    init_upload d rcb st (c :: lo :: hi :: sub :: r') =
      upload_reply (lo + 256 * hi) sub (get_data d rcb (set_mux st (lo + 256 * hi) sub) (lo + 256 * hi) sub true).
  Proof.
    unfold init_upload, upload_reply. cbn [unpack_mux].
    destruct (get_data d rcb (set_mux st (lo + 256 * hi) sub) (lo + 256 * hi) sub true) as [st2 [data|k|c0]]; try reflexivity.
    unfold init_frame. destruct ((0 <? zlen data) && (zlen data <=? 4)) eqn:E; [|reflexivity].
    assert (zlen data = 1 \/ zlen data = 2 \/ zlen data = 3 \/ zlen data = 4) as [-> | [-> | [-> | ->]]] by lia; reflexivity.
  Qed.

  Lemma on_upload st idx sub : 0 <= idx < 65536 ->
    on_req st (upload_request idx sub) = respond (upload_reply idx sub (get_data d rcb (set_mux st idx sub) idx sub true)).
  Proof.
    intros Hi. unfold upload_request, mux_bytes. cbn [app]. rewrite on_request_eq by lia.
    change (handle st 64) with (init_upload d rcb st). rewrite init_upload_eq, le2_recombine by exact Hi. reflexivity.
  Qed.

  Lemma segmented_upload_eq st c t : s_toggle st = 16 * t -> (t = 0 \/ t = 1) ->
    segmented_upload st c =
      if negb (Z.land c TOGGLE_BIT =? 16 * t) then (st, Abort AB_TOGGLE)
      else match s_buf st with
           | None => (st, Err E_TYPE)
           | Some buf => (set_buf st (Some (skipn 7 buf)) (16 * (1 - t)),
                          Ok [seg_resp t (firstn 7 buf) (is_nil (skipn 7 buf))])
           end.
  Proof.
    intros Ht Ht01. unfold segmented_upload. rewrite Ht.
    destruct (negb (Z.land c TOGGLE_BIT =? 16 * t)); [reflexivity|]. destruct (s_buf st) as [buf|]; [|reflexivity].
    destruct Ht01 as [-> | ->]; destruct buf as [|a0 [|a1 [|a2 [|a3 [|a4 [|a5 [|a6 [|a7 r]]]]]]]]; reflexivity.
  Qed.

  Lemma seg_upload_step st t buf :
    s_buf st = Some buf -> s_toggle st = 16 * t -> (t = 0 \/ t = 1) ->
    on_req st (segment_request t) =
      (set_buf st (Some (skipn 7 buf)) (16 * (1 - t)), [seg_resp t (firstn 7 buf) (is_nil (skipn 7 buf))], false).
  Proof.
    intros Hb Ht Ht01. unfold segment_request. rewrite on_request_eq by lia. unfold handle.
    replace ((96 + 16 * t) / 32) with 3 by (Z.div_mod_to_equations; lia). rewrite (segmented_upload_eq st _ t Ht Ht01), Hb.
    destruct Ht01 as [-> | ->]; reflexivity.
  Qed.

  Lemma ul_loop_server fuel : forall st t buf acc tr idx sub,
    s_buf st = Some buf -> s_toggle st = 16 * t -> (t = 0 \/ t = 1) ->
    (length buf <= 7 * fuel)%nat -> (1 <= fuel)%nat ->
    exists st', ul_loop on_req fuel st idx sub t acc (Some (zlen (acc ++ buf))) tr =
                  (st', Ok (acc ++ buf), tr ++ seg_frames fuel t buf) /\
                same_node st st' /\ cur_of st' = cur_of st.
  Proof.
    induction fuel as [|f IH]; intros st t buf acc tr idx sub Hb Ht Ht01 Hl Hf; [lia|].
    rewrite (ul_round on_req idx sub (seg_upload_step st t buf Hb Ht Ht01)) by (rewrite ?firstn_length; auto; lia).
    cbv zeta. cbn [seg_frames].
    pose proof (firstn_skipn 7 buf) as FS. pose proof (skipn_length 7 buf) as L.
    destruct (skipn 7 buf) as [|x r]; cbn [is_nil].
    - rewrite app_nil_r in FS. rewrite FS, Z.eqb_refl, Z.ltb_irrefl. cbn.
      eexists. split; [reflexivity|]. repeat split.
    - replace (acc ++ buf) with ((acc ++ firstn 7 buf) ++ x :: r) by (rewrite <- app_assoc, FS; reflexivity).
      set (acc1 := acc ++ firstn 7 buf). rewrite zlen_app, zlen_cons. pose proof (zlen_nonneg r).
      replace (zlen acc1 =? zlen acc1 + (1 + zlen r)) with false by lia.
      replace (zlen acc1 + (1 + zlen r) <? zlen acc1) with false by lia.
      cbn [orb negb Bool.eqb]. rewrite <- (zlen_cons x r), <- zlen_app. cbn [length] in L.
      destruct (IH (set_buf st (Some (x :: r)) (16 * (1 - t))) (1 - t) (x :: r) acc1
                   (tr ++ [seg_resp t (firstn 7 buf) false]) idx sub) as (st' & Hrun & Hsame);
        [reflexivity|reflexivity|lia|cbn [length]; lia..|].
      rewrite Hrun, <- app_assoc. exists st'. split; [reflexivity|exact Hsame].
  Qed.

  Lemma upload_exact st idx sub v data fuel :
    0 <= idx < 65536 ->
    find_object d idx sub = Ok v -> readable v = true -> supplies rcb st idx sub v data ->
    zlen data < 2 ^ 32 -> (length data <= 7 * fuel)%nat -> (1 <= fuel)%nat ->
    exists st', ref_upload on_req fuel st idx sub = (st', Ok data, upload_frames idx sub data) /\
                s_store st' = s_store st /\ s_log st' = s_log st ++ [EvR idx sub] /\
                s_index st' = idx /\ s_sub st' = sub /\ s_lasterr st' = s_lasterr st.
  Proof.
    intros Hi F R Sp Hn Hf1 Hf2.
    pose proof (on_upload st idx sub Hi) as U.
    rewrite (get_data_supplies (set_mux st idx sub) idx sub v data F R Sp) in U. cbn [upload_reply] in U.
    rewrite upload_frames_eq.
    destruct ((0 <? zlen data) && (zlen data <=? 4)) eqn:E.
    - rewrite (ref_upload_expedited on_req idx sub Hi E U).
      eexists. split; [reflexivity|]. repeat split.
    - replace (zlen data <? 2 ^ 32) with true in U by lia. cbn [respond] in U.
      rewrite (ref_upload_segmented on_req idx sub Hi E Hn U).
      destruct (ul_loop_server fuel (set_buf (log_ev (set_mux st idx sub) (EvR idx sub)) (Some data) 0) 0 data []
                  [init_frame idx sub data] idx sub) as (st' & Hrun & (Hs1 & Hs2 & Hs3) & [= Hi' Hs']); auto.
      cbn [app] in Hrun. rewrite Hrun, (seg_frames_fuel fuel (S (length data)) 0 data) by lia.
      eexists. split; [reflexivity|]. repeat split; assumption.
  Qed.

  (* what the server does once set_data has run: acknowledge, or abort with what it raised; the inner match is
     the one init_download and segmented_download write, so their bodies convert to it *)
  Definition after_set (x : sstate * res unit) (ack : frame) (fin : sstate -> sstate) : sstate * list frame * bool :=
    respond (let '(st2, r) := x in
             match r with Ok _ => (fin st2, Ok [ack]) | Err k => (st2, Err k) | Abort c => (st2, Abort c) end).

  Lemma on_download st idx sub data mode req : 0 <= idx < 65536 ->
    download_request idx sub data mode = Some req ->
    on_req st req =
      if mode <? 2 then after_set (set_data d (set_mux st idx sub) idx sub data true) (dl_ack idx sub) (fun s => s)
      else (set_buf (set_mux st idx sub) (Some []) 0, [dl_ack idx sub], false).
  Proof.
    intros Hi Hr. unfold download_request in Hr.
    destruct (mux_bytes_split idx sub Hi) as (lo & hi & Em & <-). rewrite Em in Hr.
    assert (M : mode = 0 \/ mode = 1 \/ mode = 2 \/ mode = 3)
      by (destruct (mode =? 0) eqn:E0, (mode =? 1) eqn:E1, (mode =? 2) eqn:E2, (mode =? 3) eqn:E3; try discriminate; lia).
    destruct M as [-> | [-> | [-> | ->]]]; cbn [Z.eqb Z.ltb Z.compare Pos.compare Pos.compare_cont] in Hr |- *.
    1: destruct ((1 <=? zlen data) && (zlen data <=? 4)) eqn:E; [|discriminate].
    2: destruct (zlen data =? 4) eqn:E; [|discriminate].
    3: destruct (zlen data <? 2 ^ 32); [|discriminate].
    all: injection Hr as <-.
    1, 2: destruct data as [|a0 [|a1 [|a2 [|a3 [|a4 r]]]]]; try (exfalso; unfold zlen in E; cbn [length] in E; lia).
    (* the server puts the index together from lo and hi and packs it again into its answer: both sides compute *)
    all: reflexivity.
  Qed.

  Lemma seg_download_step st t buf chunk last :
    s_buf st = Some buf -> s_toggle st = 16 * t -> (t = 0 \/ t = 1) -> (length chunk <= 7)%nat ->
    on_req st (seg_req t chunk last) =
      if last then
        after_set (set_data d (set_buf st (Some (buf ++ chunk)) (16 * t)) (s_index st) (s_sub st) (buf ++ chunk) true)
                  (seg_ack t) (fun s => set_buf s (s_buf s) (16 * (1 - t)))
      else (set_buf st (Some (buf ++ chunk)) (16 * (1 - t)), [seg_ack t], false).
  Proof.
    intros Hb Ht Ht01 Hl. unfold seg_req.
    destruct (seg_cmd_fields t (7 - zlen chunk) last Ht01) as (Hc & F2 & F3 & F4 & F5); [unfold zlen; lia|].
    set (c := 16 * t + 2 * (7 - zlen chunk) + (if last then 1 else 0)) in *.
    rewrite on_request_eq by lia. unfold handle. rewrite F2. unfold segmented_download, TOGGLE_BIT, NO_MORE_DATA.
    rewrite cmd_toggle, cmd_last, cmd_unused, F3, F4, F5, Ht, Hb, Z.eqb_refl. cbn [negb skipn].
    replace (Z.to_nat (8 - (7 - zlen chunk) - 1)) with (length chunk) by (unfold zlen; lia). rewrite firstn_app_exact by reflexivity.
    unfold after_set, seg_ack. destruct Ht01 as [-> | ->]; destruct last; reflexivity.
  Qed.

  (* a download of [data] ends as set_data's checks on the whole of [data] decide *)
  Definition download_outcome (st : sstate) (idx sub : Z) (data : list Z) (x : sstate * res (list Z) * list frame) : Prop :=
    let '(st', r, tr) := x in
    cur_of st' = (idx, sub) /\
    match check_set d idx sub data true with
    | Ok _ => r = Ok [] /\ s_store st' = ((idx, sub), data) :: s_store st /\ s_log st' = s_log st ++ [EvW idx sub data]
    | Abort c => r = Abort c /\ same_node st st' /\ exists tr0, tr = tr0 ++ [abort_frame_of idx sub c]
    | Err _ => False
    end.

  Lemma after_set_eq st1 i s data ack fin : 0 <= s_index st1 < 65536 -> 0 <= s_sub st1 < 256 ->
    after_set (set_data d st1 i s data true) ack fin =
      (match check_set d i s data true with Ok _ => fin (store_put (log_ev st1 (EvW i s data)) i s data) | _ => st1 end,
       [reply_of (check_set d i s data true) ack (s_index st1) (s_sub st1)], false).
  Proof.
    intros Ri Rs. unfold set_data.
    destruct (check_set_cases i s data true) as [(v & ->) | (c & -> & R)]; [reflexivity|apply do_abort_eq; assumption].
  Qed.

  Lemma dl_loop_server fuel : forall st t buf rest tr idx sub,
    s_buf st = Some buf -> s_toggle st = 16 * t -> (t = 0 \/ t = 1) ->
    cur_of st = (idx, sub) -> 0 <= idx < 65536 -> 0 <= sub < 256 ->
    (length rest <= 7 * fuel)%nat -> (1 <= fuel)%nat ->
    download_outcome st idx sub (buf ++ rest) (dl_loop on_req fuel st idx sub t rest tr).
  Proof.
    induction fuel as [|f IH]; intros st t buf rest tr idx sub Hb Ht Ht01 Hcur Ri Rs Hl Hf; [lia|].
    pose proof Hcur as [= Hi Hs].
    assert (Hl7 : (length (firstn 7 rest) <= 7)%nat) by (rewrite firstn_length; lia).
    pose proof (firstn_skipn 7 rest) as FS. pose proof (skipn_length 7 rest) as L.
    generalize (is_nil_spec (skipn 7 rest)). destruct (is_nil (skipn 7 rest)) eqn:E; intros N.
    - (* the last segment: set_data decides *)
      rewrite N, app_nil_r in FS. rewrite FS in Hl7.
      pose proof (seg_download_step st t buf rest true Hb Ht Ht01 Hl7) as Hstep. cbv iota in Hstep.
      rewrite after_set_eq in Hstep by (cbn; lia). cbn [s_index s_sub set_buf] in Hstep. rewrite Hi, Hs in Hstep.
      rewrite (dl_round on_req idx sub Ri _ (check_set_abort_range _ _ _ _) Ht01 FS E Hstep).
      unfold download_outcome. destruct (check_set_cases idx sub (buf ++ rest) true) as [(v & ->) | (c & -> & _)];
        repeat split; eauto.
    - pose proof (seg_download_step st t buf (firstn 7 rest) false Hb Ht Ht01 Hl7) as Hstep. cbv iota in Hstep.
      rewrite (dl_round on_req idx sub Ri (Ok tt) ltac:(discriminate) Ht01 eq_refl E Hstep).
      specialize (IH (set_buf st (Some (buf ++ firstn 7 rest)) (16 * (1 - t))) (1 - t) (buf ++ firstn 7 rest) (skipn 7 rest)
                     (tr ++ [seg_ack t]) idx sub).
      rewrite <- app_assoc, FS in IH. apply IH; try reflexivity; try assumption; lia.
  Qed.

  Lemma download_run st idx sub data mode req fuel :
    0 <= idx < 65536 -> 0 <= sub < 256 -> download_request idx sub data mode = Some req ->
    (length data <= 7 * fuel)%nat -> (1 <= fuel)%nat ->
    download_outcome st idx sub data (ref_download on_req fuel st idx sub data mode).
  Proof.
    intros Ri Rs Hr Hf1 Hf2. pose proof (on_download st idx sub data mode req Ri Hr) as Hstep.
    destruct (mode <? 2) eqn:M.
    - rewrite after_set_eq in Hstep by assumption. cbn [s_index s_sub set_mux] in Hstep.
      rewrite (ref_download_reply on_req idx sub Ri _ (check_set_abort_range _ _ _ _) Hr Hstep), M.
      unfold download_outcome. destruct (check_set_cases idx sub data true) as [(v & ->) | (c & -> & _)];
        repeat split; exists []; reflexivity.
    - rewrite (ref_download_reply on_req idx sub Ri (Ok tt) ltac:(discriminate) Hr Hstep), M.
      apply (dl_loop_server fuel (set_buf (set_mux st idx sub) (Some []) 0) 0 [] data); auto.
  Qed.

  Lemma download_refused st idx sub data mode req c fuel :
    0 <= idx < 65536 -> 0 <= sub < 256 ->
    download_request idx sub data mode = Some req ->
    check_set d idx sub data true = Abort c ->
    (length data <= 7 * fuel)%nat -> (1 <= fuel)%nat ->
    exists st' tr, ref_download on_req fuel st idx sub data mode = (st', Abort c, tr ++ [abort_frame_of idx sub c]) /\
                   same_node st st' /\ s_index st' = idx /\ s_sub st' = sub.
  Proof.
    intros Ri Rs Hr Hc Hf1 Hf2. pose proof (download_run st idx sub data mode req fuel Ri Rs Hr Hf1 Hf2) as O.
    destruct (ref_download on_req fuel st idx sub data mode) as [[st' r] tr]. unfold download_outcome in O. rewrite Hc in O.
    destruct O as ([= I1 I2] & -> & S & tr0 & ->). exists st', tr0. auto.
  Qed.

  (* an abort naming the multiplexer that the model holds after the request *)
  Lemma wf_abort cur c rest st1 code :
    mux_inv st1 -> cur_of st1 = next_mux cur (c :: rest) -> (c / 32 <> 4 \/ zlen (c :: rest) < 8) ->
    resp_wf cur (c :: rest) [abort_frame_of (s_index st1) (s_sub st1) code] false = true.
  Proof.
    intros M1 C1 Hal. unfold resp_wf, abort_frame_of, mux_bytes. cbn [app le_encode negb andb]. cbv zeta.
    rewrite le2_recombine by apply M1. change (128 =? 128) with true. change (s_index st1, s_sub st1) with (cur_of st1).
    rewrite C1. pose proof (next_mux_permissive cur (c :: rest)) as P. destruct (c / 32 =? 4) eqn:E.
    - replace (zlen (c :: rest) <? 8) with true by lia. exact P.
    - unfold abort_mux_ok, next_mux in *.
      destruct (initiating (c / 32)); [destruct (frame_mux (c :: rest)); [apply mux_eqb_refl|exact P]|].
      destruct ((c / 32 =? 0) || (c / 32 =? 3)); [apply mux_eqb_refl|exact P].
  Qed.

  (* what a handler returns: a state that keeps mux_inv and holds the multiplexer the reference rules expect next,
     well-formed frames, or an abort code that fits the frame *)
  Definition hres_ok (cur : Z * Z) (req : frame) (x : sstate * res (list frame)) : Prop :=
    let '(st1, r) := x in
    mux_inv st1 /\ cur_of st1 = next_mux cur req /\
    match r with
    | Ok rs => resp_wf cur req rs false = true
    | Abort code => 0 <= code < 2 ^ 32
    | Err _ => True
    end.

  Lemma mux_inv_set_buf st b t : mux_inv st -> t = 0 \/ t = 16 -> mux_inv (set_buf st b t).
  Proof. intros (I1 & I2 & _) H. exact (conj I1 (conj I2 H)). Qed.

  Lemma mux_inv_toggle st : mux_inv st -> exists t, (t = 0 \/ t = 1) /\ s_toggle st = 16 * t.
  Proof. intros (_ & _ & [H | H]); [exists 0|exists 1]; auto. Qed.

  Lemma mux_inv_set_mux st i s : mux_inv st -> 0 <= i < 65536 -> 0 <= s < 256 -> mux_inv (set_mux st i s).
  Proof. intros (_ & _ & T) Hi Hs. exact (conj Hi (conj Hs T)). Qed.

  Lemma init_upload_ok st c rest :
    mux_inv st -> bytes_ok rest -> (c / 32 = 2 \/ c / 32 = 5) ->
    hres_ok (cur_of st) (c :: rest) (init_upload d rcb st (c :: rest)).
  Proof.
    intros M Hr K.
    assert (Hinit : initiating (c / 32) = true) by (destruct K as [-> | ->]; reflexivity).
    destruct (unpack_mux_cases c rest Hr) as [(E & N) | (lo & hi & sub & r' & -> & Ri & Hsub)];
      [unfold hres_ok, init_upload; rewrite E, next_mux_short by exact N; easy|].
    pose proof (wf_init_frame (cur_of st) c lo hi sub r') as W.
    rewrite init_upload_eq. unfold hres_ok. rewrite next_mux_init by exact Hinit. set (idx := lo + 256 * hi) in *.
    pose proof (mux_inv_set_mux st idx sub M Ri Hsub) as M1.
    destruct (get_data d rcb (set_mux st idx sub) idx sub true) as [st2 r] eqn:G.
    destruct (get_data_keeps _ _ _ _ _ _ G) as (M2 & C2 & R). specialize (M2 M1).
    destruct r as [data|k|code]; cbn [upload_reply]; [|easy..].
    destruct ((0 <? zlen data) && (zlen data <=? 4)); [auto|]. destruct (zlen data <? 2 ^ 32); [|easy].
    auto using mux_inv_set_buf.
  Qed.

  Lemma segmented_upload_ok st c rest :
    mux_inv st -> c / 32 = 3 ->
    hres_ok (cur_of st) (c :: rest) (segmented_upload st c).
  Proof.
    intros M K. destruct (mux_inv_toggle st M) as (t & Ht01 & Ht).
    rewrite (segmented_upload_eq st c t Ht Ht01). unfold TOGGLE_BIT, hres_ok. rewrite cmd_toggle, next_mux_other by (rewrite K; reflexivity).
    destruct (16 * ((c / 16) mod 2) =? 16 * t) eqn:T; cbn [negb]; [|easy].
    destruct (s_buf st) as [buf|]; [|easy].
    split; [apply mux_inv_set_buf; [exact M|lia]|split; [reflexivity|]].
    apply wf_seg_resp; [exact K|lia|rewrite firstn_length; lia|exact Ht01].
  Qed.

  Lemma init_download_ok st c rest :
    mux_inv st -> bytes_ok rest -> c / 32 = 1 ->
    hres_ok (cur_of st) (c :: rest) (init_download d st (c :: rest)).
  Proof.
    intros M Hr K.
    assert (Hinit : initiating (c / 32) = true) by (rewrite K; reflexivity).
    destruct (unpack_mux_cases c rest Hr) as [(E & N) | (lo & hi & sub & r' & -> & Ri & Hsub)];
      [unfold hres_ok, init_download; rewrite E, next_mux_short by exact N; easy|].
    pose proof (wf_dl_ack (cur_of st) c lo hi sub r' K Ri) as W.
    unfold init_download, hres_ok. cbn [unpack_mux]. rewrite next_mux_init by exact Hinit. set (idx := lo + 256 * hi) in *.
    pose proof (mux_inv_set_mux st idx sub M Ri Hsub) as M1.
    destruct (negb (Z.land c EXPEDITED =? 0)).
    - edestruct set_data_cases as [E | (code & R & E)]; rewrite E; auto.
    - destruct (negb (Z.land c SIZE_SPECIFIED =? 0) && (zlen (c :: lo :: hi :: sub :: r') <? 8)); auto using mux_inv_set_buf.
  Qed.

  Lemma segmented_download_ok st c rest :
    mux_inv st -> c / 32 = 0 ->
    hres_ok (cur_of st) (c :: rest) (segmented_download d st c (c :: rest)).
  Proof.
    intros M K. pose proof M as (I1 & I2 & I3).
    unfold segmented_download, hres_ok, TOGGLE_BIT. rewrite cmd_toggle, next_mux_other by (rewrite K; reflexivity).
    destruct (16 * ((c / 16) mod 2) =? s_toggle st) eqn:T; cbn [negb]; [|easy].
    destruct (s_buf st) as [buf|]; [|easy].
    assert (W : resp_wf (cur_of st) (c :: rest) [[Z.lor RESPONSE_SEGMENT_DOWNLOAD (s_toggle st); 0; 0; 0; 0; 0; 0; 0]] false = true)
      by (apply wf_seg_ack; [exact K|exact I3|lia]).
    assert (M2 : mux_inv (set_buf st None (Z.lxor (s_toggle st) TOGGLE_BIT)))
      by (apply mux_inv_set_buf; [exact M|destruct I3 as [-> | ->]; auto]).
    destruct (negb (Z.land c NO_MORE_DATA =? 0)); [|exact (conj M2 (conj eq_refl W))].
    edestruct set_data_cases as [E | (code & R & E)]; rewrite E.
    - exact (conj M2 (conj eq_refl W)).
    - exact (conj M (conj eq_refl R)).
  Qed.

  Definition step_ok (st : sstate) (req : frame) (x : sstate * list frame * bool) : Prop :=
    mux_inv (fst (fst x)) /\ cur_of (fst (fst x)) = next_mux (cur_of st) req /\
    resp_wf (cur_of st) req (snd (fst x)) (snd x) = true.

  Lemma respond_ok st c rest x :
    hres_ok (cur_of st) (c :: rest) x ->
    (c / 32 = 4 -> match snd x with Ok _ => True | _ => zlen (c :: rest) < 8 end) ->
    step_ok st (c :: rest) (respond x).
  Proof.
    intros H Hal. destruct x as [st1 r]. destruct H as (M1 & C1 & R). cbn [snd] in Hal.
    assert (A : forall code, 0 <= code < 2 ^ 32 -> (c / 32 <> 4 \/ zlen (c :: rest) < 8) -> step_ok st (c :: rest) (do_abort st1 code)).
    { intros code Hcode Hal'. rewrite do_abort_eq by (try apply M1; exact Hcode).
      exact (conj M1 (conj C1 (wf_abort _ c rest st1 code M1 C1 Hal'))). }
    destruct r as [rs|k|code]; cbn [respond].
    - exact (conj M1 (conj C1 R)).
    - apply A; [destruct (k =? E_KEY); easy|lia].
    - apply A; [exact R|lia].
  Qed.

  Lemma on_request_ok st req : mux_inv st -> frame_ok req -> step_ok st req (on_req st req).
  Proof.
    intros M (Hb & Hl). destruct req as [|c rest]; [cbn [length] in Hl; lia|].
    apply bytes_ok_cons in Hb as (Hc & Hr). rewrite on_request_eq by exact Hc.
    apply respond_ok; unfold handle.
    2:{ intros ->. unfold request_aborted. destruct (zlen (c :: rest) <? 8) eqn:E; [cbn [snd]; lia|exact I]. }
    destruct (ccs_cases c Hc) as [K | [K | [K | [K | [K | [K | [K | K]]]]]]]; rewrite K.
    - apply segmented_download_ok; assumption.
    - apply init_download_ok; assumption.
    - apply init_upload_ok; auto.
    - apply segmented_upload_ok; assumption.
    - unfold request_aborted, hres_ok. rewrite next_mux_other by (rewrite K; reflexivity).
      destruct (zlen (c :: rest) <? 8); [easy|]. split; [exact M|split; [reflexivity|]]. unfold resp_wf. rewrite K. reflexivity.
    - apply init_upload_ok; auto.
    - unfold hres_ok. rewrite next_mux_other by (rewrite K; reflexivity). easy.
    - unfold hres_ok. rewrite next_mux_other by (rewrite K; reflexivity). easy.
  Qed.

  Lemma run_frames_ok fs : forall st, mux_inv st -> Forall frame_ok fs ->
    check_hist (cur_of st) fs (snd (run_frames d rcb st fs)) = true.
  Proof.
    induction fs as [|f fs IH]; intros st M HF; [reflexivity|].
    inversion HF as [|? ? Hf HF']; subst.
    cbn [run_frames].
    pose proof (on_request_ok st f M Hf) as (M1 & C1 & W).
    destruct (on_req st f) as [[st1 rs] raised]. cbn [fst snd] in M1, C1, W.
    specialize (IH st1 M1 HF').
    destruct (run_frames d rcb st1 fs) as [st2 outs]. cbn [snd check_hist] in IH |- *.
    rewrite W, <- C1, IH. reflexivity.
  Qed.

  Lemma one_response_per_request st0 fs : Forall frame_ok fs ->
    check_hist (0, 0) fs (snd (run_frames d rcb (fresh_state st0) fs)) = true.
  Proof.
    intros HF. apply (run_frames_ok fs (fresh_state st0)); [|exact HF].
    unfold mux_inv, fresh_state. cbn. lia.
  Qed.

  Lemma download_exact st idx sub v data mode req fuel :
    0 <= idx < 65536 -> 0 <= sub < 256 ->
    download_request idx sub data mode = Some req ->
    find_object d idx sub = Ok v -> writable v = true -> length_ok v data = true ->
    (length data <= 7 * fuel)%nat -> (1 <= fuel)%nat ->
    exists st' tr, ref_download on_req fuel st idx sub data mode = (st', Ok [], tr) /\
                   s_store st' = ((idx, sub), data) :: s_store st /\
                   s_log st' = s_log st ++ [EvW idx sub data].
  Proof.
    intros Ri Rs Hr F W L Hf1 Hf2. pose proof (download_run st idx sub data mode req fuel Ri Rs Hr Hf1 Hf2) as O.
    destruct (ref_download on_req fuel st idx sub data mode) as [[st' r] tr]. unfold download_outcome in O.
    rewrite (check_set_ok idx sub data v F W L) in O. destruct O as (_ & -> & S). exists st', tr. auto.
  Qed.

  (* an accepted download is what a later upload returns and what the write callback saw *)
  Lemma download_then_upload st idx sub v data mode req fuel :
    0 <= idx < 65536 -> 0 <= sub < 256 ->
    download_request idx sub data mode = Some req ->
    find_object d idx sub = Ok v -> writable v = true -> length_ok v data = true ->
    readable v = true -> rcb idx sub = None -> zlen data < 2 ^ 32 ->
    (length data <= 7 * fuel)%nat -> (1 <= fuel)%nat ->
    exists st1 tr1 st2,
      ref_download on_req fuel st idx sub data mode = (st1, Ok [], tr1) /\
      s_log st1 = s_log st ++ [EvW idx sub data] /\
      ref_upload on_req fuel st1 idx sub = (st2, Ok data, upload_frames idx sub data).
  Proof.
    intros Ri Rs Hr F W L R Hcb Hn Hf1 Hf2.
    destruct (download_exact st idx sub v data mode req fuel Ri Rs Hr F W L Hf1 Hf2) as (st1 & tr1 & Hd & S1 & S2).
    assert (Sp : supplies rcb st1 idx sub v data).
    { right. left. split; [exact Hcb|]. rewrite S1. cbn [store_get]. unfold key_eqb. cbn [fst snd]. rewrite !Z.eqb_refl. reflexivity. }
    destruct (upload_exact st1 idx sub v data fuel Ri F R Sp Hn Hf1 Hf2) as (st2 & Hu & _).
    exists st1, tr1, st2. auto.
  Qed.

  Lemma upload_refused st idx sub c st2 fuel :
    0 <= idx < 65536 -> 0 <= sub < 256 ->
    get_data d rcb (set_mux st idx sub) idx sub true = (st2, Abort c) ->
    ref_upload on_req fuel st idx sub = (st2, Abort c, [abort_frame_of idx sub c]).
  Proof.
    intros Ri Rs G. pose proof (on_upload st idx sub Ri) as U. rewrite G in U. cbn [upload_reply respond] in U.
    destruct (get_data_keeps _ _ _ _ _ _ G) as (_ & [= <- <-] & Rc).
    rewrite do_abort_eq in U by assumption. apply (ref_upload_abort on_req _ _ Ri Rc U).
  Qed.

  (* the code with which get_data refuses before it asks anything *)
  Definition read_refusal (idx sub : Z) : option Z :=
    match find_object d idx sub with
    | Ok v => if readable v then None else Some AB_WRITEONLY
    | Abort c => Some c
    | Err _ => None
    end.

  Lemma read_refused st idx sub c fuel :
    0 <= idx < 65536 -> 0 <= sub < 256 -> read_refusal idx sub = Some c ->
    ref_upload on_req fuel st idx sub = (set_mux st idx sub, Abort c, [abort_frame_of idx sub c]).
  Proof.
    intros Ri Rs H. apply upload_refused; try assumption. unfold read_refusal in H. unfold get_data.
    destruct (find_object d idx sub) as [v|k|c']; [destruct (readable v)|..]; try discriminate; injection H as <-; reflexivity.
  Qed.

  Lemma read_write_only st idx sub v fuel :
    0 <= idx < 65536 -> 0 <= sub < 256 ->
    find_object d idx sub = Ok v -> readable v = false ->
    exists st', ref_upload on_req fuel st idx sub = (st', Abort 0x06010001, [abort_frame_of idx sub 0x06010001]) /\
                same_node st st'.
  Proof.
    intros Ri Rs F R. exists (set_mux st idx sub). split; [|repeat split]. apply read_refused; try assumption.
    unfold read_refusal. rewrite F, R. reflexivity.
  Qed.

  (* an entry that has no value: the read callback is asked, nothing else happens *)
  Lemma read_no_value st idx sub v fuel :
    0 <= idx < 65536 -> 0 <= sub < 256 ->
    find_object d idx sub = Ok v -> readable v = true -> no_value rcb st idx sub v ->
    exists st', ref_upload on_req fuel st idx sub = (st', Abort 0x060A0023, [abort_frame_of idx sub 0x060A0023]) /\
                s_store st' = s_store st /\ s_log st' = s_log st ++ [EvR idx sub].
  Proof.
    intros Ri Rs F R (N1 & N2 & N3 & N4). exists (log_ev (set_mux st idx sub) (EvR idx sub)). split; [|split; reflexivity].
    apply upload_refused; try assumption. unfold get_data. rewrite F, R. cbn [negb andb].
    rewrite N1. cbn [s_store set_mux]. rewrite N2, N3, N4. reflexivity.
  Qed.

  Lemma find_object_no_index idx sub : zassoc idx d = None -> find_object d idx sub = Abort 0x06020000.
  Proof. intros H. unfold find_object. rewrite H. reflexivity. Qed.

  Lemma find_object_no_sub idx sub : sub_missing d idx sub -> find_object d idx sub = Abort 0x06090011.
  Proof.
    unfold sub_missing, find_object.
    destruct (zassoc idx d) as [[v|subs|subs]|]; [| | |tauto].
    - intros H. replace (sub =? 0) with false by lia. reflexivity.
    - intros ->. reflexivity.
    - intros (-> & H). destruct ((0 <? sub) && (sub <? 256)) eqn:E; [|reflexivity].
      destruct H as [H | ->]; [lia|reflexivity].
  Qed.

  (* wrong toggle bit in a segment request: one abort naming the running transfer, state untouched *)
  Lemma wrong_toggle st c rest :
    0 <= c < 256 -> 0 <= s_index st < 65536 -> 0 <= s_sub st < 256 ->
    (c / 32 = 0 \/ c / 32 = 3) -> 16 * ((c / 16) mod 2) <> s_toggle st ->
    on_req st (c :: rest) = (st, [abort_frame_of (s_index st) (s_sub st) 0x05030000], false).
  Proof.
    intros Hc Ri Rs K T. rewrite on_request_eq by exact Hc. unfold handle.
    destruct K as [-> | ->]; unfold segmented_download, segmented_upload, TOGGLE_BIT; rewrite cmd_toggle;
      replace (16 * ((c / 16) mod 2) =? s_toggle st) with false by lia; apply do_abort_eq; easy.
  Qed.

  (* block download (not supported) and the unassigned command specifier 7 *)
  Lemma unknown_command st c rest :
    0 <= c < 256 -> 0 <= s_index st < 65536 -> 0 <= s_sub st < 256 ->
    (c / 32 = 6 \/ c / 32 = 7) ->
    on_req st (c :: rest) = (st, [abort_frame_of (s_index st) (s_sub st) 0x05040001], false).
  Proof.
    intros Hc Ri Rs K. rewrite on_request_eq by exact Hc. unfold handle.
    destruct K as [-> | ->]; apply do_abort_eq; easy.
  Qed.

  (* a CAN frame without data bytes is outside the property (1..8 bytes); the code raises on it *)
  Lemma empty_frame_raises st : on_req st [] = (st, [], true).
  Proof. reflexivity. Qed.

  Lemma check_set_read_only idx sub v data :
    find_object d idx sub = Ok v -> writable v = false -> check_set d idx sub data true = Abort 0x06010002.
  Proof. intros F W. unfold check_set. rewrite F. cbn [rbind]. rewrite W. reflexivity. Qed.

  Lemma check_set_missing idx sub c data : find_object d idx sub = Abort c -> check_set d idx sub data true = Abort c.
  Proof. intros F. unfold check_set. rewrite F. reflexivity. Qed.

  Lemma check_set_wrong_length idx sub v data :
    find_object d idx sub = Ok v -> writable v = true -> is_number v = true -> 8 * zlen data <> len_bits (v_dt v) ->
    check_set d idx sub data true = Abort 0x06070010.
  Proof.
    intros F W N L. unfold check_set. rewrite F. cbn [rbind]. rewrite W, N. cbn [negb andb].
    replace (8 * zlen data =? len_bits (v_dt v)) with false by lia. reflexivity.
  Qed.

  Definition refused_download (st : sstate) (idx sub : Z) (data : list Z) (mode : Z) (fuel : nat) (code : Z) : Prop :=
    exists st' tr, ref_download on_req fuel st idx sub data mode = (st', Abort code, tr ++ [abort_frame_of idx sub code]) /\
                   s_store st' = s_store st /\ s_log st' = s_log st.

  Lemma download_refused' st idx sub data mode req c fuel :
    0 <= idx < 65536 -> 0 <= sub < 256 ->
    download_request idx sub data mode = Some req ->
    check_set d idx sub data true = Abort c ->
    (length data <= 7 * fuel)%nat -> (1 <= fuel)%nat ->
    refused_download st idx sub data mode fuel c.
  Proof.
    intros Ri Rs Hr Hc Hf1 Hf2.
    destruct (download_refused st idx sub data mode req c fuel Ri Rs Hr Hc Hf1 Hf2) as (st' & tr & H & (S1 & S2 & _) & _).
    exists st', tr. auto.
  Qed.

  Lemma write_read_only st idx sub v data mode req fuel :
    0 <= idx < 65536 -> 0 <= sub < 256 ->
    download_request idx sub data mode = Some req ->
    find_object d idx sub = Ok v -> writable v = false ->
    (length data <= 7 * fuel)%nat -> (1 <= fuel)%nat ->
    refused_download st idx sub data mode fuel 0x06010002.
  Proof.
    intros Ri Rs Hr F W. apply (download_refused' st idx sub data mode req _ fuel Ri Rs Hr (check_set_read_only idx sub v data F W)).
  Qed.

  Lemma write_wrong_length st idx sub v data mode req fuel :
    0 <= idx < 65536 -> 0 <= sub < 256 ->
    download_request idx sub data mode = Some req ->
    find_object d idx sub = Ok v -> writable v = true -> is_number v = true -> 8 * zlen data <> len_bits (v_dt v) ->
    (length data <= 7 * fuel)%nat -> (1 <= fuel)%nat ->
    refused_download st idx sub data mode fuel 0x06070010.
  Proof.
    intros Ri Rs Hr F W N L.
    apply (download_refused' st idx sub data mode req _ fuel Ri Rs Hr (check_set_wrong_length idx sub v data F W N L)).
  Qed.

  Definition refused_upload (st : sstate) (idx sub : Z) (fuel : nat) (code : Z) : Prop :=
    exists st', ref_upload on_req fuel st idx sub = (st', Abort code, [abort_frame_of idx sub code]) /\
                s_store st' = s_store st /\ s_log st' = s_log st.

  (* an object or sub-index that _find_object does not find is refused alike for reads and writes *)
  Lemma missing st idx sub c fuel :
    0 <= idx < 65536 -> 0 <= sub < 256 -> find_object d idx sub = Abort c ->
    refused_upload st idx sub fuel c /\
    forall data mode req, download_request idx sub data mode = Some req ->
      (length data <= 7 * fuel)%nat -> (1 <= fuel)%nat -> refused_download st idx sub data mode fuel c.
  Proof.
    intros Ri Rs F. split.
    - exists (set_mux st idx sub). split; [|split; reflexivity]. apply read_refused; try assumption. unfold read_refusal. rewrite F. reflexivity.
    - intros data mode req Hr. apply (download_refused' st idx sub data mode req c fuel Ri Rs Hr (check_set_missing idx sub c data F)).
  Qed.

  Lemma missing_index st idx sub fuel :
    0 <= idx < 65536 -> 0 <= sub < 256 -> zassoc idx d = None ->
    refused_upload st idx sub fuel 0x06020000 /\
    forall data mode req, download_request idx sub data mode = Some req ->
      (length data <= 7 * fuel)%nat -> (1 <= fuel)%nat -> refused_download st idx sub data mode fuel 0x06020000.
  Proof. intros Ri Rs H. exact (missing st idx sub _ fuel Ri Rs (find_object_no_index idx sub H)). Qed.

  Lemma missing_subindex st idx sub fuel :
    0 <= idx < 65536 -> 0 <= sub < 256 -> sub_missing d idx sub ->
    refused_upload st idx sub fuel 0x06090011 /\
    forall data mode req, download_request idx sub data mode = Some req ->
      (length data <= 7 * fuel)%nat -> (1 <= fuel)%nat -> refused_download st idx sub data mode fuel 0x06090011.
  Proof. intros Ri Rs H. exact (missing st idx sub _ fuel Ri Rs (find_object_no_sub idx sub H)). Qed.

  Lemma read_write_only' st idx sub v fuel :
    0 <= idx < 65536 -> 0 <= sub < 256 ->
    find_object d idx sub = Ok v -> readable v = false -> refused_upload st idx sub fuel 0x06010001.
  Proof.
    intros Ri Rs F R. destruct (read_write_only st idx sub v fuel Ri Rs F R) as (st' & Hu & S1 & S2 & _).
    exists st'. auto.
  Qed.
End Server.

Lemma reachable_in_range d rcb st req :
  mux_inv st -> frame_ok req -> mux_inv (fst (fst (on_request d rcb st req))).
Proof. intros M F. exact (proj1 (on_request_ok d rcb st req M F)). Qed.

(* the client side: an abort frame makes read_response raise SdoAbortedError with exactly the code *)
Lemma client_abort_decoding idx sub code : 0 <= code < 2 ^ 32 ->
  client_read_response (Some (abort_frame_of idx sub code)) = Abort code.
Proof.
  intros Hc. unfold client_read_response, abort_frame_of, mux_bytes. cbn [app le_encode].
  change (128 =? RESPONSE_ABORTED) with true. cbn iota.
  change (zlen [128; idx mod 256; (idx / 256) mod 256; sub; code mod 256; (code / 256) mod 256; (code / 256 / 256) mod 256;
                (code / 256 / 256 / 256) mod 256] <? 8) with false. cbn iota. cbn [skipn firstn].
  f_equal. exact (le_decode_encode_small 4 code Hc).
Qed.

Lemma client_abort_decoding_bytes b1 b2 b3 c0 c1 c2 c3 :
  client_read_response (Some [128; b1; b2; b3; c0; c1; c2; c3]) = Abort (c0 + 256 * (c1 + 256 * (c2 + 256 * (c3 + 256 * 0)))).
Proof. reflexivity. Qed.

Definition codes_used : list Z :=
  [0x05030000; 0x05040001; 0x06010001; 0x06010002; 0x06020000; 0x06070010; 0x06090011; 0x060A0023; 0x08000000].

Lemma codes_in_table : forallb (fun c => zmem c ABORT_CODES) codes_used = true.
Proof. vm_compute. reflexivity. Qed.

(* concrete inputs for the non-vacuity examples of Properties/C02.v and C06.v *)
Definition nv_data : list Z := [10; 11; 12; 13; 14; 15; 16; 17; 18; 19; 20; 21; 22; 23; 24; 25; 26; 27; 28; 29].
Definition nv_var : var := mkVar (Some dt_DOMAIN) [114; 119] (Some (PBytes [1; 2; 3])) (Some (PBytes nv_data)).
Definition nv_dict : dict := [(0x2000, OVar nv_var); (0x2001, OVar (mkVar (Some dt_UNSIGNED16) [114; 119] None None))].
Definition nv_rcb : Z -> Z -> option pyval := fun _ _ => None.
Definition nv_hist : list frame :=
  [[0x60; 0; 0; 0; 0; 0; 0; 0]; [0xE0]; [0x40; 0; 0x20]; [0x40; 0; 0x20; 0; 0; 0; 0; 0]; [0x70; 0; 0; 0; 0; 0; 0; 0];
   [0x60; 0; 0; 0; 0; 0; 0; 0]; [0xC0; 1; 0x20; 0; 0; 0; 0; 0]; [0x80; 0; 0x20; 0; 0; 0; 4; 5]; [0x80; 0; 0x20];
   [0x2F; 1; 0x20; 0; 9; 0; 0; 0]; [0x2B; 1; 0x20; 0; 9; 1; 0; 0]].
