(* Source tie (DESIGN.md 4.3) for C12: BlockDownloadStream.write / send / _block_ack / close as translated from the
   CURRENT source text (Gen/SrcC12.v, state skeletons) determine the model functions of Model/BlockDl.v: which branch
   is taken, which byte 0 goes on the bus (sequence number, c bit 0x80, end request with the unused-byte count), when
   the CRC is fed, when the acknowledge is awaited, when _retransmit is called and what _seqno / _blksize / _done / pos
   are afterwards. *)
From Coq Require Import ZArith List Bool.
From CV Require Import Base.Val Base.Bytes Gen.SdoTables Gen.SrcC12 Model.Crc Model.RefBlockServer Model.BlockDl.
Import ListNotations.
Open Scope Z_scope.

Definition zsome (o : option Z) : bool := match o with Some _ => true | None => false end.
Definition zget (o : option Z) : Z := match o with Some x => x | None => 0 end.

Section Eq.
  Context {S : Type} (srv : S -> frame -> S * list frame).
  Context (rec_write : dl -> @net S -> list Z -> @R S (option Z)).

  Definition lift_send (n : Z) (r : @R S unit) : @R S (option Z) :=
    match r with
    | (Ok _, c', w') => (Ok (Some n), c', w')
    | (Err k, c', w') => (Err k, c', w')
    | (Abort a, c', w') => (Abort a, c', w')
    end.

  Theorem src_dl_write_eq c w b :
    write_body srv rec_write c w b =
    let data := firstn 7 b in
    let act := src_dl_write (d_done c) (zsome (d_size c)) (zget (d_size c)) (d_pos c) (zlen data) 0 in
    if act =? 0 then (Err E_RUNTIME, c, w)
    else if act =? 1 then lift_send (zlen data) (send srv rec_write c w data true)
    else if act =? 2 then (Ok None, c, w)
    else lift_send (zlen data) (send srv rec_write c w data false).
  Proof.
    unfold write_body, src_dl_write, lift_send. destruct (d_done c); [reflexivity|].
    destruct (d_size c) as [s|]; cbn [zsome zget andb].
    - rewrite Z.geb_leb. destruct (s <=? d_pos c + zlen (firstn 7 b)); [reflexivity|].
      destruct (zlen (firstn 7 b) <? 7); reflexivity.
    - destruct (zlen (firstn 7 b) <? 7); reflexivity.
  Qed.

  (* send(): the block counters, by the two tests it makes (end of data; CRC in use and not a retransmission) *)
  Lemma src_dl_send_val e sq blk blen last pos done cs retx b0 crcp ack :
    src_dl_send e sq blk blen last pos done cs retx b0 crcp ack =
    let sq1 := sq + 1 in
    let blk1 := if e then sq1 else blk in
    (if e then Z.lor sq1 NO_MORE_BLOCKS else sq1, sq1, if e then true else done, blk1, if e then blen else last,
     pos + blen, if cs && negb retx then true else crcp, if sq1 >=? blk1 then true else ack).
  Proof. unfold src_dl_send. destruct e, (cs && negb retx); cbn [negb]; cbv zeta; destruct (_ >=? _); reflexivity. Qed.

  Theorem src_dl_send_eq c w b e :
    send srv rec_write c w b e =
    let '(byte0, seqno, done, blksize, last, pos, crcp, ack) :=
      src_dl_send e (d_seqno c) (d_blksize c) (zlen b) (d_last c) (d_pos c) (d_done c) (d_crcsup c) (d_retx c) 0 false false in
    let w1 := send_request srv w (pad8 (byte0 :: b)) in
    let c1 := mkdl (d_size c) pos done seqno (if crcp then crc_from (d_crc c) b else d_crc c) last (d_cur c ++ [b])
                   (d_retx c) blksize (d_crcsup c) (d_closed c) in
    if ack then block_ack srv rec_write c1 w1 else (Ok tt, c1, w1).
  Proof.
    rewrite src_dl_send_val. unfold send. cbv beta iota zeta. rewrite Z.geb_leb.
    destruct (d_crcsup c && negb (d_retx c)), (_ <=? _); reflexivity.
  Qed.

  Theorem src_dl_block_ack_eq c w :
    block_ack srv rec_write c w =
    match read_response w with
    | (Err k, w1) => (Err k, c, w1)
    | (Abort a, w1) => (Abort a, c, w1)
    | (Ok r, w1) =>
        let '(code, abort, blksize, seqno, cleared) :=
          src_dl_block_ack (fb r 0) (fb r 1) (fb r 2) (d_blksize c) (d_seqno c) 0 0 false in
        if code =? 0 then (Err E_SDOCOMM, c, client_abort srv w1 abort)
        else if code =? 2 then retransmit rec_write c w1 (fb r 1) (fb r 2)
        else (Ok tt, mkdl (d_size c) (d_pos c) (d_done c) seqno (d_crc c) (d_last c) (if cleared then [] else d_cur c)
                          (d_retx c) blksize (d_crcsup c) (d_closed c), w1)
    end.
  Proof.
    unfold block_ack, src_dl_block_ack. destruct (read_response w) as [[r|k|a] w1]; try reflexivity.
    destruct (negb (Z.land (fb r 0) 224 =? RESPONSE_BLOCK_DOWNLOAD)); [reflexivity|].
    destruct (negb (Z.land (fb r 0) 3 =? BLOCK_TRANSFER_RESPONSE)); [reflexivity|].
    destruct (negb (fb r 1 =? d_blksize c)); reflexivity.
  Qed.

  Theorem src_dl_close_eq c w :
    dl_close srv c w =
    let sk rc := src_dl_close (d_closed c) (d_done c) (d_last c) (d_crcsup c) (d_crc c) rc 0 0 false 0 in
    let '(code0, byte0, crch, crcf) := sk 1 in
    if code0 =? 0 then (Ok tt, w)
    else
      match request_response srv w (byte0 :: (if crch then [crcf mod 256; crcf / 256] else [0; 0]) ++ [0; 0; 0; 0; 0]) with
      | (Err k, w1) => (Err k, w1)
      | (Abort a, w1) => (Abort a, w1)
      | (Ok r, w1) => let '(code, _, _, _) := sk (fb r 0) in
                      if code =? 1 then (Ok tt, w1) else (Err E_SDOCOMM, w1)
      end.
  Proof.
    unfold dl_close, src_dl_close, dl_end_request.
    destruct (d_closed c); [reflexivity|].
    change (Z.land 1 END_BLOCK_TRANSFER =? 0) with false.
    destruct (d_done c), (d_crcsup c); cbn [negb app Z.eqb];
      (destruct (request_response srv w _) as [[r|k|a] w1]; try reflexivity;
       destruct (Z.land (fb r 0) END_BLOCK_TRANSFER =? 0); reflexivity).
  Qed.
End Eq.
