(* Source tie (DESIGN.md 4.3): eds._signed_int_from_hex and eds._calc_bit_length as translated from the CURRENT source
   text (Gen/SrcC08.v) equal the model of Model/Eds.v and the regenerated CALC_BIT_LENGTH table (C08). *)
From Coq Require Import ZArith List.
From CV Require Import Base.Bytes Base.Tys Gen.SrcC08 Gen.EdsTables Model.Eds.
Import ListNotations.
Open Scope Z_scope.

Theorem src_signed_int_from_hex_eq t bits n : 1 <= bits -> int0 t = Some n ->
  signed_int_from_hex t bits = Some (src_signed_int_from_hex n bits).
Proof.
  intros Hb Hn. unfold signed_int_from_hex, src_signed_int_from_hex. rewrite Hn. cbv zeta.
  rewrite !Z.shiftl_1_l. reflexivity.
Qed.

(* the translated if-chain and the table evaluated from the running code agree on every data type 0..255 *)
Theorem src_calc_bit_length_eq : forall dt, 0 <= dt < 256 ->
  src_calc_bit_length dt = zassoc dt CALC_BIT_LENGTH.
Proof.
  intros dt H.
  pose proof (range_forall (fun n => match src_calc_bit_length n, zassoc n CALC_BIT_LENGTH with
                                     | Some a, Some b => a =? b | None, None => true | _, _ => false end)
                0 256 ltac:(vm_compute; reflexivity) dt H) as A. cbv beta in A.
  destruct (src_calc_bit_length dt), (zassoc dt CALC_BIT_LENGTH); try discriminate; try reflexivity.
  f_equal. apply Z.eqb_eq, A.
Qed.
