(* Source tie (DESIGN.md 4.3) for C06: the refusal logic of LocalNode._find_object / get_data / set_data and of
   SdoServer.on_request / segmented_download / abort as translated from the CURRENT source text (Gen/SrcC06.v,
   tools/tables/src_c06.py) determines the model functions of Model/SdoServer.v: which abort code is raised under
   which condition and in which ORDER, that a refusal happens before any callback / store / state change, which
   handler a command specifier selects, and what abort() packs. *)
From Coq Require Import ZArith List Bool Lia.
From CV Require Import Base.Val Base.Bytes Base.Tys Gen.Tables Gen.SdoTables Gen.SrcC06 Model.Codec Model.RefClient
  Model.SdoServer Proofs.SdoServer_proofs.
Import ListNotations.
Open Scope Z_scope.

Definition code_of {A} (r : res A) : Z := match r with Ok _ => 0 | Abort c => c | Err _ => -1 end.
Definition osome6 {A} (o : option A) : bool := match o with Some _ => true | None => false end.

(* what the skeleton of _find_object reads *)
Definition has_index (d : dict) (idx : Z) : bool := osome6 (zassoc idx d).
Definition is_var (d : dict) (idx : Z) : bool := match zassoc idx d with Some (OVar _) => true | _ => false end.
(* `subindex in obj` for records (membership) and arrays (Mapping.__contains__ through ODArray.__getitem__) *)
Definition has_sub (d : dict) (idx sub : Z) : bool :=
  match zassoc idx d with
  | Some (ORec subs) => osome6 (zassoc sub subs)
  | Some (OArr subs) => osome6 (zassoc sub subs) || ((0 <? sub) && (sub <? 256) && osome6 (zassoc 1 subs))
  | _ => false
  end.

Theorem src_find_object_eq d idx sub :
  code_of (find_object d idx sub) = src_find_object (has_index d idx) (is_var d idx) (has_sub d idx sub) sub /\
  (forall k, find_object d idx sub <> Err k).
Proof.
  split; [|apply find_object_not_err].
  unfold find_object, src_find_object, has_index, is_var, has_sub.
  destruct (zassoc idx d) as [[v|subs|subs]|]; cbn [osome6 negb].
  - destruct (sub =? 0); reflexivity.
  - destruct (zassoc sub subs); reflexivity.
  - destruct (zassoc sub subs); cbn [osome6 orb negb]; [reflexivity|].
    destruct ((0 <? sub) && (sub <? 256)); cbn [andb]; [destruct (zassoc 1 subs)|]; reflexivity.
  - reflexivity.
Qed.

Lemma find_abort_nonzero d idx sub c : find_object d idx sub = Abort c -> c <> 0.
Proof. destruct (find_object_cases d idx sub) as [(v & ->) | [-> | ->]]; intros [= <-]; discriminate. Qed.

(* the value that source number [src] supplies *)
Definition value_from (rcb : Z -> Z -> option pyval) (st : sstate) (idx sub : Z) (v : var) (src : Z) : res (list Z) :=
  if src =? 1 then match rcb idx sub with Some r => encode_raw (v_dt v) r | None => Err E_FUEL end
  else if src =? 2 then match store_get (s_store st) idx sub with Some b => Ok b | None => Err E_FUEL end
  else if src =? 3 then match v_value v with Some x => encode_raw (v_dt v) x | None => Err E_FUEL end
  else match v_default v with Some x => encode_raw (v_dt v) x | None => Err E_FUEL end.

Theorem src_get_data_eq d rcb st idx sub chk :
  match find_object d idx sub with
  | Ok v =>
      let '(code, src, cbrun) :=
        src_get_data 0 chk (readable v) (osome6 (rcb idx sub)) (osome6 (store_get (s_store st) idx sub))
                     (osome6 (v_value v)) (osome6 (v_default v)) false in
      get_data d rcb st idx sub chk =
        (if cbrun then log_ev st (EvR idx sub) else st,
         if code =? 0 then value_from rcb st idx sub v src else Abort code)
  | Abort c =>
      get_data d rcb st idx sub chk = (st, Abort c) /\
      forall r h s a b, src_get_data c chk r h s a b false = (c, 0, false)
  | Err _ => False
  end.
Proof.
  pose proof (find_object_not_err d idx sub) as NE. pose proof (find_abort_nonzero d idx sub) as NZ.
  unfold get_data, src_get_data, value_from.
  destruct (find_object d idx sub) as [v|k|c].
  - cbn [Z.eqb negb]. destruct (chk && negb (readable v)); [reflexivity|].
    destruct (rcb idx sub); cbn [osome6]; [reflexivity|].
    destruct (store_get (s_store st) idx sub); cbn [osome6 negb]; [reflexivity|].
    destruct (v_value v); cbn [osome6]; [reflexivity|].
    destruct (v_default v); reflexivity.
  - exact (NE k eq_refl).
  - split; [reflexivity|]. intros. specialize (NZ c eq_refl).
    replace (c =? 0) with false by lia. reflexivity.
Qed.

Definition dt_or (v : var) : Z := match v_dt v with Some t => t | None => -1 end.

Theorem src_set_data_eq d st idx sub data chk :
  match find_object d idx sub with
  | Ok v =>
      let '(code, stored, cbrun, cbfirst) :=
        src_set_data 0 chk (writable v) (dt_or v) (zlen data) (len_bits (v_dt v)) 0 false false false in
      set_data d st idx sub data chk =
        (if code =? 0 then (store_put (log_ev st (EvW idx sub data)) idx sub data, Ok tt) else (st, Abort code)) /\
      (if code =? 0 then stored = true /\ cbrun = true /\ cbfirst = true else stored = false /\ cbrun = false)
  | Abort c =>
      set_data d st idx sub data chk = (st, Abort c) /\
      forall w t n l, src_set_data c chk w t n l 0 false false false = (c, false, false, false)
  | Err _ => False
  end.
Proof.
  pose proof (find_object_not_err d idx sub) as NE. pose proof (find_abort_nonzero d idx sub) as NZ.
  assert (M1 : zmem (-1) NUMBER_TYPES = false) by (vm_compute; reflexivity).
  unfold set_data, check_set, src_set_data, is_number, dt_or.
  destruct (find_object d idx sub) as [v|k|c]; cbn [rbind].
  - cbn [Z.eqb negb]. destruct (chk && negb (writable v)); [split; [reflexivity|split; reflexivity]|].
    destruct (v_dt v) as [t|].
    + destruct (zmem t NUMBER_TYPES && negb (8 * zlen data =? len_bits (Some t)));
        (split; [reflexivity|repeat split; reflexivity]).
    + rewrite M1. cbn [andb]. split; [reflexivity|repeat split; reflexivity].
  - exact (NE k eq_refl).
  - split; [reflexivity|]. intros. specialize (NZ c eq_refl).
    replace (c =? 0) with false by lia. reflexivity.
Qed.

(* on_request: the handler selected by the command specifier; the except clauses (fixed by their source text in
   tools/tables/src_c06.py) turn SdoAbortedError(code) into abort(code), KeyError into abort(0x06020000) and anything
   else into abort() = abort(src_abort_default) *)
Theorem src_dispatch_eq d rcb st c rest :
  on_request d rcb st (c :: rest) =
  let h := src_dispatch c 0 in
  let '(st1, r) :=
    if h =? 1 then init_upload d rcb st (c :: rest)
    else if h =? 2 then segmented_upload st c
    else if h =? 3 then init_download d st (c :: rest)
    else if h =? 4 then segmented_download d st c (c :: rest)
    else if h =? 5 then (if src_block_upload 0 =? 1 then init_upload d rcb st (c :: rest) else (st, Err E_FUEL))
    else if h =? 6 then (st, Abort (src_block_download 0))
    else if h =? 7 then request_aborted st (c :: rest)
    else (st, Abort 0x05040001) in
  match r with
  | Ok rs => (st1, rs, false)
  | Abort code => do_abort st1 code
  | Err k => do_abort st1 (if k =? E_KEY then 0x06020000 else src_abort_default)
  end.
Proof.
  unfold on_request, src_dispatch. cbv zeta.
  destruct (Z.land c 224 =? REQUEST_UPLOAD); [reflexivity|].
  destruct (Z.land c 224 =? REQUEST_SEGMENT_UPLOAD); [reflexivity|].
  destruct (Z.land c 224 =? REQUEST_DOWNLOAD); [reflexivity|].
  destruct (Z.land c 224 =? REQUEST_SEGMENT_DOWNLOAD); [reflexivity|].
  destruct (Z.land c 224 =? REQUEST_BLOCK_UPLOAD); [reflexivity|].
  destruct (Z.land c 224 =? REQUEST_BLOCK_DOWNLOAD); [reflexivity|].
  destruct (Z.land c 224 =? REQUEST_ABORTED); reflexivity.
Qed.

Lemma check_set_abort_nonzero d i s data chk c : check_set d i s data chk = Abort c -> c <> 0.
Proof.
  unfold check_set. pose proof (find_abort_nonzero d i s) as F.
  destruct (find_object d i s) as [v|k'|c']; cbn [rbind]; [|discriminate|intros [= <-]; apply F; reflexivity].
  destruct (chk && negb (writable v)); [intros [= <-]; discriminate|].
  destruct (is_number v && negb (8 * zlen data =? len_bits (v_dt v))); [intros [= <-]; discriminate|discriminate].
Qed.

(* segmented_download: the toggle check comes first and leaves the whole state alone; otherwise the buffer is extended by
   request[1:last_byte] BEFORE set_data is asked (only on the last segment), and toggle / response follow only on success *)
Theorem src_segmented_download_eq d st command req buf : s_buf st = Some buf ->
  let lb := 8 - Z.land (Z.shiftr command 1) 7 in
  let buf1 := buf ++ firstn (Z.to_nat (lb - 1)) (skipn 1 req) in
  let st1 := set_buf st (Some buf1) (s_toggle st) in
  let sd := set_data d st1 (s_index st) (s_sub st) buf1 true in
  let '(code, extended, last_byte, setcalled, resc, tg) :=
    src_segmented_download command (s_toggle st) (code_of (snd sd)) false false in
  if negb extended then code = 0x05030000 /\ segmented_download d st command req = (st, Abort code)
  else last_byte = lb /\
       if code =? 0 then
         let st2 := if setcalled then fst sd else st1 in
         segmented_download d st command req = (set_buf st2 (s_buf st2) tg, Ok [[resc; 0; 0; 0; 0; 0; 0; 0]])
       else setcalled = true /\ segmented_download d st command req = (fst sd, Abort code).
Proof.
  intros Hb. cbv zeta. unfold src_segmented_download, segmented_download. rewrite Hb.
  set (buf1 := buf ++ firstn _ (skipn 1 req)).
  destruct (negb (Z.land command TOGGLE_BIT =? s_toggle st)); cbv beta iota zeta; cbn [negb]; [split; reflexivity|].
  destruct (negb (Z.land command NO_MORE_DATA =? 0)); cbv beta iota zeta; cbn [negb]; [|split; reflexivity].
  unfold set_data.
  pose proof (check_set_not_err d (s_index st) (s_sub st) buf1 true) as NE.
  pose proof (check_set_abort_nonzero d (s_index st) (s_sub st) buf1 true) as NZ.
  destruct (check_set d (s_index st) (s_sub st) buf1 true) as [v|k|c].
  - cbn [snd fst code_of Z.eqb negb]. cbv beta iota zeta. cbn [negb Z.eqb]. split; reflexivity.
  - exfalso. exact (NE k eq_refl).
  - cbn [snd fst code_of]. specialize (NZ c eq_refl). replace (c =? 0) with false by lia. cbn [negb]. cbv beta iota zeta.
    cbn [negb]. replace (c =? 0) with false by lia.
    split; [reflexivity|]. split; reflexivity.
Qed.

(* abort(): command byte 0x80, the multiplexer of the running transfer, the code, packed as <BHBL, and sent *)
Theorem src_abort_frame_eq st code :
  0 <= s_index st < 65536 -> 0 <= s_sub st < 256 -> 0 <= code < 2 ^ 32 ->
  let '(b0, i, s, c, sent) := src_abort_frame (s_index st) (s_sub st) code false in
  abort_frame st code = Some (b0 :: le_encode 2 i ++ [s] ++ le_encode 4 c) /\ sent = true /\
  do_abort st code = (st, [abort_frame_of (s_index st) (s_sub st) code], false).
Proof.
  intros Hi Hs Hc. unfold src_abort_frame. split; [apply abort_frame_eq|split; [reflexivity|apply do_abort_eq]]; assumption.
Qed.
