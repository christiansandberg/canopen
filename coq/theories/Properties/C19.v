(* C19 - CiA 402 state decoding and commanded transitions follow the drive state machine.
   Statements only: each theorem is [exact] of a lemma of Proofs/{P402_proofs.v, Src_eq_c19.v};
   the examples are concrete instances.
   Model: Model/P402.v (State402 tables, BaseNode402.state getter / setter, _next_state,
   _change_state, next_state_indirect, is_op_mode_supported, op_mode) run against the reference
   CiA 402 drive Model/RefDrive.v (written from the standard); tables: Gen/P402Tables.v,
   regenerated from /repo on every run.
   Not modelled: the wall-clock time-outs of the setters (a loop left by time-out is out of fuel). *)
From Coq Require Import ZArith List Bool String.
From CV Require Import Base.Val Base.Tys Gen.P402Tables Model.RefDrive Model.P402 Proofs.P402_proofs Gen.SrcC19 Proofs.Src_eq_c19.
Import ListNotations.
Open Scope Z_scope.

(* Every 16-bit statusword is reported as the CiA 402 state whose hand-written pattern
   (RefDrive.sw_pattern) matches, as UNKNOWN when none matches, and never two patterns match
   (cia_decode returns "AMBIGUOUS" only when List.length (cia_states_of sw) > 1).
   Bound 65536 = all statuswords; proved through the 128 values of the pattern bits. *)
Theorem C19_statusword_decoding : forall sw : Z, 0 <= sw < 65536 ->
  decode_state sw = cia_decode sw /\ (List.length (cia_states_of sw) <= 1)%nat.
Proof. exact statusword_decoding. Qed.

(* the same for every Python int *)
Theorem C19_statusword_decoding_any : forall sw : Z,
  decode_state sw = cia_decode sw /\ (List.length (cia_states_of sw) <= 1)%nat.
Proof. exact statusword_decoding_any. Qed.

(* bits outside the patterns (0x6F) are ignored, for arbitrary integers *)
Theorem C19_decode_ignores_extra_bits : forall sw extra : Z,
  Z.land extra 111 = 0 -> decode_state (Z.lor sw extra) = decode_state sw.
Proof. exact decode_ignores_extra_bits. Qed.

(* whatever a drive in state s reports in the don't-care bits, the state is reported as s *)
Theorem C19_drive_statusword_decodes : forall (s : dstate) (extra : Z),
  decode_state (sw_of s extra) = dstate_name s.
Proof. exact decode_sw_of. Qed.

(* For each of the 8 start states x, each of the 5 commandable targets t, EVERY schedule s of the
   automatic transitions (no bound on its length), every choice of the don't-care status bits and
   both transports of the statusword: `node.state = t` returns (PDone) within K + |s| status reads
   (K = 40; more reads would give PFail E_FUEL), the drive is then in t, and no controlword with the
   enable-operation command (0xxx 1111) was sent unless t is OPERATION ENABLED or QUICK STOP ACTIVE. *)
Theorem C19_commanded_transitions : forall (by_pdo : bool) (x t : dstate) (s : list bool) (extra : Z),
  commandable t = true ->
  let '(p, d) := run_setter by_pdo (K + List.length s) (dstate_name t) (drive_init x s extra) in
  p = PDone /\ d_st d = t /\
  (may_enable t = false -> forall c, In c (d_cws d) -> is_enable_operation c = false).
Proof. exact commanded_transitions. Qed.

(* NOT READY TO SWITCH ON, FAULT, FAULT REACTION ACTIVE: refused (ValueError) after one status read and
   before any controlword, unless that first read already shows the target (then a no-op). *)
Theorem C19_uncommandable_refused : forall (by_pdo : bool) (x t : dstate) (s : list bool) (extra : Z) (n : nat),
  commandable t = false ->
  let first := if hd true s then auto x else x in
  let '(p, d) := run_setter by_pdo (S n) (dstate_name t) (drive_init x s extra) in
  p = (if dstate_eqb first t then PDone else PFail E_VALUE) /\ d_cws d = [] /\ d_reads d = 1 /\ d_st d = first.
Proof. exact uncommandable_refused. Qed.

(* operation modes: hand-written CiA 402 table (RefDrive.cia402_modes: name, code of 0x6060, bit in 0x6502)
   against the regenerated OperationMode tables, for every supported-modes value *)
Theorem C19_op_mode_supported : forall name code bit support, In (name, (code, bit)) cia402_modes ->
  is_op_mode_supported name support = Ok (mode_advertised support bit).
Proof. exact supported_spec. Qed.

(* assignment of a mode: refused (TypeError, nothing written) iff the mask lacks the mode's bit; otherwise
   exactly the CiA 402 code is written, and the assignment returns once the drive displays it (lag reads) *)
Theorem C19_op_mode_rules : forall name code bit support display lag,
  In (name, (code, bit)) cia402_modes ->
  let '(r, d) := set_op_mode (S lag) name (mdrive_init support display lag) in
  if mode_advertised support bit
  then m_writes d = [code] /\ (display_known display -> r = Ok tt)
  else r = Err E_TYPE /\ m_writes d = [].
Proof. exact op_mode_rules. Qed.

Example C19_nv_decoding : cia_decode 4663 = "OPERATION ENABLED"%string /\ cia_states_of 4663 = [OperationEnabled] /\
  cia_decode 13 = "UNKNOWN"%string /\ decode_state 65471 = "FAULT REACTION ACTIVE"%string /\
  sw_of Fault 65535 = 65464.
Proof. vm_compute. repeat split; reflexivity. Qed.

(* a racy run: the automatic transition fires at the third read; two controlwords reach the target *)
Example C19_nv_transitions : commandable OperationEnabled = true /\ commandable SwitchedOn = true /\
  (let '(p, d) := run_setter false (K + 3) "SWITCHED ON" (drive_init NotReady [false; false; true] 33808) in
   (p, d_st d, rev (d_cws d), d_reads d)) = (PDone, SwitchedOn, [6; 7], 12) /\
  (let '(p, d) := run_setter true (K + 3) "QUICK STOP ACTIVE" (drive_init FaultReaction [false; false; false] 0) in
   (p, d_st d, rev (d_cws d))) = (PDone, QuickStopActive, [0; 128; 6; 7; 15; 2]) /\
  is_enable_operation 15 = true /\ may_enable SwitchedOn = false.
Proof. vm_compute. repeat split; reflexivity. Qed.

Example C19_nv_uncommandable : commandable Fault = false /\
  fst (run_setter false 5 "FAULT" (drive_init FaultReaction [false; true] 0)) = PFail E_VALUE /\
  fst (run_setter false 5 "FAULT" (drive_init FaultReaction [true] 0)) = PDone.
Proof. vm_compute. repeat split; reflexivity. Qed.

Example C19_nv_modes : In ("HOMING"%string, (6, Some 5)) cia402_modes /\
  mode_advertised 32 (Some 5) = true /\ mode_advertised 991 (Some 5) = false /\ display_known 1 /\
  fst (set_op_mode 3 "HOMING" (mdrive_init 32 1 2)) = Ok tt.
Proof.
  split; [cbn; tauto|]. split; [reflexivity|]. split; [reflexivity|]. split; [|reflexivity].
  eexists. vm_compute. reflexivity.
Qed.

(* Tie to the source text: the BaseNode402.state getter as translated from the CURRENT source by
   tools/py2coq.py (Gen/SrcC19.v, regenerated on every run), applied to the regenerated SW_MASK, is the
   model's decode_state. *)
Theorem C19_source_state_getter_is_model : forall sw, src_p402_state SW_MASK sw = decode_state sw.
Proof. exact src_p402_state_eq. Qed.

Print Assumptions C19_statusword_decoding.
Print Assumptions C19_statusword_decoding_any.
Print Assumptions C19_decode_ignores_extra_bits.
Print Assumptions C19_drive_statusword_decodes.
Print Assumptions C19_commanded_transitions.
Print Assumptions C19_uncommandable_refused.
Print Assumptions C19_op_mode_supported.
Print Assumptions C19_op_mode_rules.
Print Assumptions C19_source_state_getter_is_model.
