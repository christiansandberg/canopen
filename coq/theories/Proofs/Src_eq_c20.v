(* Source tie (DESIGN.md 4.3): ODVariable.decode_bits / encode_bits as translated from the CURRENT source text (Gen/SrcC20.v)
   equal the model functions of Model/Views.v (C20). *)
From Coq Require Import ZArith List Lia.
From CV Require Import Base.Val Gen.SrcC20 Model.Views.
Import ListNotations.
Open Scope Z_scope.

Lemma mask_of_fold bits : Forall (fun b => 0 <= b) bits -> forall mask,
  mask_of bits mask = Ok (fold_left (fun mask bit => Z.lor mask (Z.shiftl 1 bit)) bits mask).
Proof.
  induction 1 as [|b r Hb Hr IH]; intros mask; cbn [mask_of fold_left]; [reflexivity|].
  replace (b <? 0) with false by lia. apply IH.
Qed.

Theorem src_decode_bits_eq value bits : bits <> [] -> Forall (fun b => 0 <= b) bits ->
  decode_bits_list value bits = Ok (src_decode_bits value bits).
Proof.
  intros Hne Hpos. unfold decode_bits_list, src_decode_bits. rewrite (mask_of_fold bits Hpos). cbn [rbind].
  destruct bits as [|x r]; [congruence|]. reflexivity.
Qed.

Theorem src_encode_bits_eq original bits bit_value : bits <> [] -> Forall (fun b => 0 <= b) bits ->
  encode_bits_list original bits bit_value = Ok (src_encode_bits original bits bit_value).
Proof.
  intros Hne Hpos. unfold encode_bits_list, src_encode_bits. rewrite (mask_of_fold bits Hpos). cbn [rbind].
  destruct bits as [|x r]; [congruence|]. reflexivity.
Qed.

(* Variable.read / Variable.write: the dispatch on fmt as translated from the source text is the model's rw_route
   (the methods do nothing else than go through the raw / phys / desc property that the format names). *)
Theorem src_read_route_eq fmt : src_read_route fmt = rw_route fmt.
Proof. unfold src_read_route, rw_route, FMT_RAW, FMT_PHYS, FMT_DESC. reflexivity. Qed.

Theorem src_write_route_eq fmt : src_write_route fmt 0 = rw_route fmt.
Proof.
  unfold src_write_route, rw_route, FMT_RAW, FMT_PHYS, FMT_DESC.
  destruct (fmt =? 0); [reflexivity|]. destruct (fmt =? 1); [reflexivity|]. destruct (fmt =? 2); reflexivity.
Qed.
