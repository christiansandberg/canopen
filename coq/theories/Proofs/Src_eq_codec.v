(* Source tie (DESIGN.md 4.3): the range tests of IntegerN.pack / UnsignedN.pack as translated from the CURRENT source text
   (Gen/SrcC04.v) are the model's in_range (Model/Codec.v, C04). *)
From Coq Require Import ZArith Bool.
From CV Require Import Gen.SrcC04 Model.Codec.
Open Scope Z_scope.

Theorem src_integerN_accepts_eq v w : 1 <= w -> src_integerN_accepts v w = in_range true w v.
Proof.
  intros _. unfold src_integerN_accepts, in_range. cbv zeta. rewrite !Z.shiftl_1_l.
  destruct ((- 2 ^ (w - 1) <=? v) && (v <? 2 ^ (w - 1))); reflexivity.
Qed.

Theorem src_unsignedN_accepts_eq v w : 0 <= w -> src_unsignedN_accepts v w = in_range false w v.
Proof.
  intros _. unfold src_unsignedN_accepts, in_range. cbv zeta. rewrite !Z.shiftl_1_l.
  destruct ((0 <=? v) && (v <? 2 ^ w)); reflexivity.
Qed.
