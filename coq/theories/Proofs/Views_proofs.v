(* C20, the views of a variable (Model/Views.v).  Bit access is characterised bit by bit with [Z.testbit]: for any
   list of bit numbers ([bits_set_general]) and, on a list that covers lo..hi, as the field [lo, hi+1) of Base/Bits.v
   ([covers_mask]).  Value descriptions are an association table; the scaled view is rounding to the nearest integer,
   ties to even ([nearest_even]); the accessors are then run against any store that returns what was last stored. *)
From Coq Require Import ZArith Qabs List Lia.
From CV Require Import Base.Val Base.Bytes Base.Bits Base.Tys Gen.Tables Model.Codec Model.Views
  Proofs.Codec_proofs.
Import ListNotations.
Open Scope Z_scope.

Definition nonneg_bits (l : list Z) : Prop := Forall (fun b => 0 <= b) l.

Lemma mask_of_spec l : forall acc, nonneg_bits l ->
  exists m, mask_of l acc = Ok m /\
            forall i, 0 <= i -> Z.testbit m i = Z.testbit acc i || zmem i l.
Proof.
  induction l as [|b l IH]; intros acc H.
  - exists acc. split; [reflexivity|]. intros. cbn. now rewrite orb_false_r.
  - inversion H as [|? ? Hb Hl]; subst. cbn [mask_of].
    replace (b <? 0) with false by lia.
    destruct (IH (Z.lor acc (Z.shiftl 1 b)) Hl) as (m & Hm & Hs).
    exists m. split; [assumption|]. intros i Hi. rewrite Hs by assumption.
    rewrite Z.lor_spec, Z.shiftl_1_l, Z.pow2_bits_eqb by assumption. cbn [zmem].
    rewrite (Z.eqb_sym b i). destruct (i =? b); cbn; [now rewrite orb_true_r|now rewrite orb_false_r].
Qed.

Lemma mask_of_negative l : forall acc, ~ nonneg_bits l -> mask_of l acc = Err E_VALUE.
Proof.
  induction l as [|b l IH]; intros acc H.
  - exfalso. apply H. constructor.
  - cbn [mask_of]. destruct (b <? 0) eqn:E; [reflexivity|].
    apply IH. intro Hl. apply H. constructor; [cbn beta; lia|assumption].
Qed.

Lemma fold_min_spec l : forall x, let m := fold_left Z.min l x in
  In m (x :: l) /\ forall b, In b (x :: l) -> m <= b.
Proof.
  induction l as [|y l IH]; intros x; cbn [fold_left].
  - split; [now left|]. intros b [<-|[]]. lia.
  - destruct (IH (Z.min x y)) as [H1 H2]. split.
    + destruct H1 as [H1|H1]; [|now right; right]. rewrite <- H1.
      destruct (Z.min_spec x y) as [[_ ->]|[_ ->]]; [now left|right; now left].
    + pose proof (H2 _ (or_introl eq_refl)). intros b [<-|[<-|Hb]]; [lia|lia|]. apply H2. now right.
Qed.

Lemma list_min_spec l : l <> [] -> exists m, list_min l = Ok m /\ In m l /\ forall b, In b l -> m <= b.
Proof. destruct l as [|x l]; [congruence|]. intros _. eexists. split; [reflexivity|apply fold_min_spec]. Qed.

(* a value has the shape of the list: every set bit of v, moved up by the smallest listed
   bit, is a listed bit *)
Definition fits (l : list Z) (m v : Z) : Prop :=
  0 <= v /\ forall j, 0 <= j -> Z.testbit v j = true -> In (j + m) l.

(* any list of bit numbers, contiguous or not.  Bit i of the result: the old bit unless i is listed,
   OR-ed with the value shifted by the smallest listed bit; the value is NOT masked and NOT spread
   over the listed bits, so the result is a field only for a value that has the list's shape *)
Theorem bits_set_general raw l v : nonneg_bits l -> l <> [] ->
  exists m r, list_min l = Ok m /\ encode_bits_list raw l v = Ok r /\
    (forall i, 0 <= i -> Z.testbit r i = (Z.testbit raw i && negb (zmem i l)) || Z.testbit v (i - m)) /\
    (fits l m v ->
       (forall i, 0 <= i -> Z.testbit r i = if zmem i l then Z.testbit v (i - m) else Z.testbit raw i) /\
       decode_bits_list r l = Ok v).
Proof.
  intros Hn Hne. destruct (mask_of_spec l 0 Hn) as (mask & Hm & Hmask).
  destruct (list_min_spec l Hne) as (m & Hmin & Hin & _).
  assert (Hm0 : 0 <= m) by (unfold nonneg_bits in Hn; rewrite Forall_forall in Hn; now apply Hn).
  unfold encode_bits_list, decode_bits_list. rewrite Hm, Hmin. cbn [rbind].
  set (r := Z.lor (Z.land raw (Z.lnot mask)) (Z.shiftl v m)).
  assert (Hs : forall i, 0 <= i ->
            Z.testbit r i = (Z.testbit raw i && negb (zmem i l)) || Z.testbit v (i - m)).
  { intros i Hi. unfold r. rewrite Z.lor_spec, Z.land_spec, Z.lnot_spec, Z.shiftl_spec, Hmask by assumption.
    now rewrite Z.bits_0. }
  exists m, r. repeat split; try assumption; destruct H as [Hv Hf].
  - intros i Hi. rewrite Hs by assumption. destruct (zmem i l) eqn:Ez; cbn [negb]; [now rewrite andb_false_r|].
    rewrite andb_true_r. destruct (Z.testbit v (i - m)) eqn:Eb; [exfalso|apply orb_false_r].
    destruct (Z_lt_le_dec (i - m) 0) as [L|L]; [rewrite Z.testbit_neg_r in Eb by lia; discriminate|].
    apply Hf, zmem_In in Eb; [|exact L]. replace (i - m + m) with i in Eb by lia. congruence.
  - f_equal. apply Z.bits_inj'. intros j Hj.
    rewrite Z.shiftr_spec, Z.land_spec, Hmask, Hs, Z.bits_0 by lia. replace (j + m - m) with j by lia.
    destruct (Z.testbit v j) eqn:Eb.
    + apply Hf, zmem_In in Eb; [|exact Hj]. now rewrite Eb, orb_true_r.
    + rewrite orb_false_r. destruct (zmem (j + m) l); cbn; now rewrite ?andb_false_r.
Qed.

(* the value leaks outside the listed bits when it does not have their shape *)
Lemma bits_leak_example :
  encode_bits_list 0 [0; 2] 2 = Ok 2 /\ zmem 1 [0; 2] = false /\ Z.testbit 2 1 = true.
Proof. vm_compute. repeat split; reflexivity. Qed.

Definition covers (l : list Z) (lo hi : Z) : Prop := forall b, In b l <-> lo <= b <= hi.

Lemma covers_zmem l lo hi i : covers l lo hi -> zmem i l = (lo <=? i) && (i <=? hi).
Proof.
  intros H. destruct ((lo <=? i) && (i <=? hi)) eqn:E.
  - apply zmem_In, H. lia.
  - apply zmem_false. intro Hi. apply H in Hi. lia.
Qed.

Lemma covers_nonneg l lo hi : covers l lo hi -> 0 <= lo -> nonneg_bits l.
Proof. intros H Hlo. apply Forall_forall. intros b Hb. apply H in Hb. lia. Qed.

Lemma covers_nonempty l lo hi : covers l lo hi -> lo <= hi -> l <> [].
Proof. intros H Hl E. subst. assert (In lo []) by (apply H; lia). contradiction. Qed.

(* the central fact: on a list that covers lo..hi the mask is the mask of the field [lo, hi+1) and the
   smallest bit is lo, so that the code computes get_field / set_field *)
Lemma covers_mask l lo hi : covers l lo hi -> 0 <= lo <= hi ->
  mask_of l 0 = Ok (Z.shiftl (Z.ones (hi - lo + 1)) lo) /\ list_min l = Ok lo.
Proof.
  intros Hc Hl.
  destruct (mask_of_spec l 0 (covers_nonneg l lo hi Hc ltac:(lia))) as (m & -> & Hs).
  destruct (list_min_spec l (covers_nonempty l lo hi Hc ltac:(lia))) as (m' & -> & Hin & Hle).
  split; f_equal.
  - apply Z.bits_inj'. intros i Hi.
    rewrite Hs, mask_spec, Z.bits_0, (covers_zmem l lo hi i Hc) by lia. cbn [orb]. lia.
  - apply Hc in Hin. specialize (Hle lo ltac:(apply Hc; lia)). lia.
Qed.

Lemma bits_contiguous raw l lo hi : covers l lo hi -> 0 <= lo <= hi ->
  decode_bits_list raw l = Ok (get_field raw lo (hi - lo + 1)) /\
  forall v, 0 <= v < 2 ^ (hi - lo + 1) -> encode_bits_list raw l v = Ok (set_field raw lo (hi - lo + 1) v).
Proof.
  intros Hc Hl. destruct (covers_mask l lo hi Hc Hl) as (Hm & Hmin).
  unfold decode_bits_list, encode_bits_list. rewrite Hm, Hmin. cbn [rbind]. split.
  - unfold get_field. now rewrite Z.shiftr_land, Z.shiftr_shiftl_l, Z.sub_diag, Z.shiftl_0_r by lia.
  - intros v Hv. unfold set_field. now rewrite land_ones_small by lia.
Qed.

(* bits outside the field width of v are what the caller passed: an over-wide value spills *)
Lemma bits_overflow_example : encode_bits_list 0 [0; 1] 7 = Ok 7.
Proof. reflexivity. Qed.

Lemma zrange_In s n : forall b, In b (zrange s 1 n) <-> s <= b < s + Z.of_nat n.
Proof.
  revert s. induction n as [|n IH]; intros s b; cbn [zrange In].
  - lia.
  - rewrite IH. lia.
Qed.

Lemma py_range_step1 lo hi : covers (py_range lo (hi + 1) 1) lo hi.
Proof.
  intros b. unfold py_range. cbn [Z.ltb Z.compare]. rewrite zrange_In.
  replace ((hi + 1 - lo + 1 - 1) / 1) with (hi + 1 - lo) by (rewrite Z.div_1_r; lia).
  lia.
Qed.

(* how a key names the range lo..hi *)
Inductive spells (defs : list (list Z * list Z)) : bkey -> Z -> Z -> Prop :=
| sp_int b : spells defs (KInt b) b b
| sp_list l lo hi : covers l lo hi -> spells defs (KList l) lo hi
| sp_slice start step lo hi :
    (start = Some lo \/ (start = None /\ lo = 0)) ->
    (step = None \/ step = Some 1) ->
    spells defs (KSlice start (Some (hi + 1)) step) lo hi
| sp_name s l lo hi : sassoc s defs = Some l -> covers l lo hi -> spells defs (KName s) lo hi.

Lemma spells_resolves defs key lo hi : spells defs key lo hi ->
  exists sel l, get_bits key = Ok sel /\ resolve defs sel = Ok l /\ covers l lo hi.
Proof.
  intros H. destruct H as [b|l lo hi Hc|start step lo hi Hs Hst|s l lo hi Ha Hc].
  - exists (BList [b]), [b]. split; [reflexivity|]. split; [reflexivity|]. intro x. cbn. lia.
  - exists (BList l), l. split; [reflexivity|]. split; [reflexivity|]. exact Hc.
  - exists (BList (py_range lo (hi + 1) 1)), (py_range lo (hi + 1) 1). split; [|split; [reflexivity|apply py_range_step1]].
    cbn [get_bits].
    assert (py_or start 0 = lo) as ->.
    { destruct Hs as [->|[-> ->]]; [|reflexivity]. cbn. destruct (lo =? 0) eqn:E; lia. }
    assert (py_or step 1 = 1) as -> by (destruct Hst as [->| ->]; reflexivity).
    reflexivity.
  - exists (BName s), l. split; [reflexivity|]. split; [|exact Hc]. cbn. now rewrite Ha.
Qed.

(* var.bits[key] = v  and  var.bits[key]  on the raw value, without the store *)
Definition bits_write (defs : list (list Z * list Z)) (raw : Z) (key : bkey) (v : Z) : res Z :=
  rbind (get_bits key) (fun sel => encode_bits defs raw sel v).
Definition bits_read (defs : list (list Z * list Z)) (raw : Z) (key : bkey) : res Z :=
  rbind (get_bits key) (fun sel => decode_bits defs raw sel).

(* reading a range of any raw value returns exactly those bits *)
Theorem bits_get_exact defs key lo hi raw :
  spells defs key lo hi -> 0 <= lo <= hi ->
  bits_read defs raw key = Ok (get_field raw lo (hi - lo + 1)).
Proof.
  intros Hsp Hl. destruct (spells_resolves defs key lo hi Hsp) as (sel & l & Hg & Hr & Hc).
  unfold bits_read, decode_bits. rewrite Hg. cbn [rbind]. rewrite Hr. now apply (bits_contiguous raw l lo hi).
Qed.

Lemma bits_set_field defs key lo hi raw v :
  spells defs key lo hi -> 0 <= lo <= hi -> 0 <= v < 2 ^ (hi - lo + 1) ->
  bits_write defs raw key v = Ok (set_field raw lo (hi - lo + 1) v).
Proof.
  intros Hsp Hl Hv. destruct (spells_resolves defs key lo hi Hsp) as (sel & l & Hg & Hr & Hc).
  unfold bits_write, encode_bits. rewrite Hg. cbn [rbind]. rewrite Hr. now apply (bits_contiguous raw l lo hi).
Qed.

Lemma set_range_spec raw lo hi v i : 0 <= lo <= hi -> 0 <= i ->
  Z.testbit (set_field raw lo (hi - lo + 1) v) i =
  if (lo <=? i) && (i <=? hi) then Z.testbit v (i - lo) else Z.testbit raw i.
Proof. intros Hl Hi. rewrite set_field_spec by lia. now replace (i <? lo + (hi - lo + 1)) with (i <=? hi) by lia. Qed.

Theorem bits_set_exact defs key lo hi raw v :
  spells defs key lo hi -> 0 <= lo <= hi -> 0 <= v < 2 ^ (hi - lo + 1) ->
  exists r, bits_write defs raw key v = Ok r /\
    r = set_field raw lo (hi - lo + 1) v /\
    (forall i, 0 <= i ->
       Z.testbit r i = if (lo <=? i) && (i <=? hi) then Z.testbit v (i - lo) else Z.testbit raw i) /\
    (0 <= raw -> 0 <= r) /\
    (forall n, 0 <= raw < 2 ^ n -> hi < n -> 0 <= r < 2 ^ n).
Proof.
  intros Hsp Hl Hv. eexists. split; [now apply (bits_set_field defs key lo hi)|]. split; [reflexivity|]. split; [|split].
  - intros i Hi. now apply set_range_spec.
  - intros. apply set_field_nonneg; lia.
  - intros n Hn Hh. apply set_field_bound; lia.
Qed.

Lemma bits_get_set_field defs key lo hi raw v :
  spells defs key lo hi -> 0 <= lo <= hi -> 0 <= v < 2 ^ (hi - lo + 1) ->
  bits_read defs (set_field raw lo (hi - lo + 1) v) key = Ok v.
Proof. intros Hsp Hl Hv. rewrite (bits_get_exact defs key lo hi), get_set_small by (assumption || lia). reflexivity. Qed.

Theorem bits_get_after_set defs key lo hi raw v :
  spells defs key lo hi -> 0 <= lo <= hi -> 0 <= v < 2 ^ (hi - lo + 1) ->
  exists r, bits_write defs raw key v = Ok r /\ bits_read defs r key = Ok v.
Proof.
  intros Hsp Hl Hv. eexists. split; [now apply (bits_set_field defs key lo hi)|now apply bits_get_set_field].
Qed.

Lemma bits_errors defs raw v :
  (forall l, ~ nonneg_bits l -> encode_bits defs raw (BList l) v = Err E_VALUE /\ decode_bits defs raw (BList l) = Err E_VALUE) /\
  encode_bits defs raw (BList []) v = Err E_VALUE /\ decode_bits defs raw (BList []) = Err E_VALUE /\
  (forall c s, sassoc (c :: s) defs = None ->
     encode_bits defs raw (BName (c :: s)) v = Err E_TYPE /\ decode_bits defs raw (BName (c :: s)) = Err E_TYPE) /\
  (forall a st, get_bits (KSlice a None st) = Err E_TYPE).
Proof.
  split; [|split; [reflexivity|split; [reflexivity|split]]].
  - intros l H. cbn. unfold encode_bits_list, decode_bits_list. now rewrite mask_of_negative.
  - intros c s H. unfold encode_bits, decode_bits. cbn [resolve]. now rewrite H.
  - reflexivity.
Qed.

Lemma zassoc_nodup {A} (t : list (Z * A)) v d : NoDup (map fst t) -> In (v, d) t -> zassoc v t = Some d.
Proof.
  induction t as [|[k a] r IH]; cbn; intros Hn Hin; [contradiction|].
  inversion Hn as [|? ? Hk Hr]; subst. destruct Hin as [H|H]; [inversion H; now rewrite Z.eqb_refl|].
  destruct (Z.eqb_spec v k) as [->|_]; [|now apply IH]. exfalso. apply Hk. now apply (in_map fst) in H.
Qed.

Lemma find_desc_first d t v :
  find_desc d t = Some v <->
  exists t1 t2, t = t1 ++ (v, d) :: t2 /\ forall e, In e t1 -> snd e <> d.
Proof.
  split.
  - induction t as [|[k a] r IH]; cbn; [discriminate|]. destruct (list_Z_eqb a d) eqn:E.
    + apply list_Z_eqb_eq in E as ->. intros [= ->]. exists [], r. split; [reflexivity|intros e []].
    + intros H. destruct (IH H) as (t1 & t2 & -> & Hf). exists ((k, a) :: t1), t2. split; [reflexivity|].
      intros e [<-|He]; [now apply list_Z_eqb_neq|now apply Hf].
  - intros (t1 & t2 & -> & Hf). induction t1 as [|[k a] t1 IH]; cbn; [now rewrite list_Z_eqb_refl|].
    rewrite (proj2 (list_Z_eqb_neq a d)) by (apply (Hf (k, a)); now left).
    apply IH. intros e He. apply Hf. now right.
Qed.

Lemma find_desc_none d t : find_desc d t = None <-> ~ In d (map snd t).
Proof.
  induction t as [|[k a] r IH]; cbn; [split; [tauto|reflexivity]|].
  destruct (list_Z_eqb a d) eqn:E.
  - apply list_Z_eqb_eq in E. split; [discriminate|]. intros H. exfalso. apply H. now left.
  - apply list_Z_eqb_neq in E. rewrite IH. tauto.
Qed.

Lemma find_desc_nodup d t v : NoDup (map snd t) -> In (v, d) t -> find_desc d t = Some v.
Proof.
  induction t as [|[k a] r IH]; cbn; intros Hn Hin; [contradiction|].
  inversion Hn as [|? ? Ha Hr]; subst. destruct (list_Z_eqb a d) eqn:E.
  - apply list_Z_eqb_eq in E. subst a. destruct Hin as [H|H]; [now inversion H|].
    exfalso. apply Ha. now apply (in_map snd) in H.
  - apply list_Z_eqb_neq in E. destruct Hin as [H|H]; [inversion H; contradiction|]. now apply IH.
Qed.

(* the table that add_value_description builds never has a value twice *)
Lemma zdict_set_keys {A} k (a : A) t :
  map fst (zdict_set k a t) = if zmem k (map fst t) then map fst t else map fst t ++ [k].
Proof.
  induction t as [|[k' a'] r IH]; cbn; [reflexivity|]. destruct (k =? k') eqn:E; cbn.
  - apply Z.eqb_eq in E. now subst.
  - rewrite IH. now destruct (zmem k (map fst r)).
Qed.

Lemma zdict_set_nodup {A} k (a : A) t : NoDup (map fst t) -> NoDup (map fst (zdict_set k a t)).
Proof.
  intros Hn. rewrite zdict_set_keys. destruct (zmem k (map fst t)) eqn:E; [exact Hn|].
  apply NoDup_snoc; [exact Hn|now apply zmem_false].
Qed.

Lemma zdict_set_same {A} k (a : A) t : zassoc k (zdict_set k a t) = Some a.
Proof.
  induction t as [|[k' a'] r IH]; cbn; [now rewrite Z.eqb_refl|].
  destruct (k =? k') eqn:E; cbn; [now rewrite Z.eqb_refl|now rewrite E].
Qed.

Lemma zdict_set_other {A} k (a : A) t k2 : k2 <> k -> zassoc k2 (zdict_set k a t) = zassoc k2 t.
Proof.
  intros Hne. induction t as [|[k' a'] r IH]; cbn.
  - now replace (k2 =? k) with false by lia.
  - destruct (k =? k') eqn:E; cbn.
    + apply Z.eqb_eq in E. subst k'. now replace (k2 =? k) with false by lia.
    + now rewrite IH.
Qed.

Lemma build_descs_nodup adds : NoDup (map fst (build_descs adds)).
Proof.
  unfold build_descs. assert (G : forall t, NoDup (map fst t) ->
    NoDup (map fst (fold_left (fun t e => zdict_set (fst e) (snd e) t) adds t))).
  { induction adds as [|e adds IH]; intros t Ht; cbn; [assumption|]. apply IH. now apply zdict_set_nodup. }
  apply G. constructor.
Qed.

(* the last description given for a value is the one in force *)
Lemma build_descs_last adds v d : zassoc v (build_descs (adds ++ [(v, d)])) = Some d.
Proof. unfold build_descs. rewrite fold_left_app. cbn. apply zdict_set_same. Qed.

Theorem desc_roundtrip t : NoDup (map fst t) ->
  (forall d v, encode_desc t d = Ok v -> decode_desc t v = Ok d) /\
  (NoDup (map snd t) -> forall v d, decode_desc t v = Ok d -> encode_desc t d = Ok v) /\
  (forall v d, In (v, d) t ->
     decode_desc t v = Ok d /\ (NoDup (map snd t) -> encode_desc t d = Ok v)).
Proof.
  intros Hk. unfold encode_desc, decode_desc. destruct t as [|e t']; [repeat split; (discriminate || contradiction)|].
  set (t := e :: t') in *. split; [|split].
  - intros d v. destruct (find_desc d t) eqn:F; [|discriminate]. intros H. inversion H. subst z.
    apply find_desc_first in F as (t1 & t2 & E & _). rewrite (zassoc_nodup t v d Hk); [reflexivity|].
    rewrite E. apply in_elt.
  - intros Hd v d. destruct (zassoc v t) eqn:F; [|discriminate]. intros H. inversion H. subst l.
    now rewrite (find_desc_nodup d t v Hd (zassoc_In _ _ _ F)).
  - intros v d Hin. rewrite (zassoc_nodup t v d Hk Hin). split; [reflexivity|].
    intros Hd. now rewrite (find_desc_nodup d t v Hd Hin).
Qed.

(* without distinct descriptions: the first entry, in insertion order, that carries the text *)
Theorem desc_encode_first t d v :
  encode_desc t d = Ok v <->
  exists t1 t2, t = t1 ++ (v, d) :: t2 /\ forall e, In e t1 -> snd e <> d.
Proof.
  rewrite <- find_desc_first. unfold encode_desc. destruct t as [|e t']; [split; discriminate|].
  destruct (find_desc d (e :: t')); split; intros H; try discriminate; now inversion H.
Qed.

Theorem desc_errors t :
  (forall d, encode_desc [] d = Err E_OD) /\ (forall v, decode_desc [] v = Err E_OD) /\
  (t <> [] -> forall d, ~ In d (map snd t) -> encode_desc t d = Err E_VALUE) /\
  (forall v, ~ In v (map fst t) -> decode_desc t v = Err E_OD).
Proof.
  split; [reflexivity|split; [reflexivity|split]].
  - intros Hne d Hd. unfold encode_desc. destruct t; [congruence|]. apply find_desc_none in Hd. now rewrite Hd.
  - intros v Hv. unfold decode_desc. destruct t as [|e t']; [reflexivity|].
    destruct (zassoc v (e :: t')) eqn:F; [|reflexivity]. apply zassoc_In in F. exfalso. apply Hv.
    now apply (in_map fst) in F.
Qed.

(* R is a nearest integer to n/D, the even one if there are two *)
Definition nearest_even (n D R : Z) : Prop :=
  (2 * R - 1) * D <= 2 * n <= (2 * R + 1) * D /\
  ((2 * n = (2 * R - 1) * D \/ 2 * n = (2 * R + 1) * D) -> Z.even R = true).

Lemma nearest_even_Q q R : nearest_even (Qnum q) (Z.pos (Qden q)) R <->
  (Qabs (q - inject_Z R) <= 1 # 2)%Q /\ ((Qabs (q - inject_Z R) == 1 # 2)%Q -> Z.even R = true).
Proof.
  destruct q as [n d]. unfold nearest_even, Qle, Qeq, Qabs, Qminus, Qplus, Qopp, inject_Z. cbn [Qnum Qden].
  split; (intros [H T]; split; [lia|intros E; apply T; lia]).
Qed.

Lemma round_half_even_nearest_even q : nearest_even (Qnum q) (Z.pos (Qden q)) (round_half_even q).
Proof.
  unfold round_half_even, nearest_even. cbv zeta.
  generalize (Pos2Z.is_pos (Qden q)). generalize (Z.pos (Qden q)) (Qnum q). intros D n HD.
  pose proof (Z.div_mod n D ltac:(lia)) as E. pose proof (Z.mod_pos_bound n D HD) as B.
  set (fl := n / D) in *. set (r := n mod D) in *.
  destruct (Z.compare_spec (2 * r) D) as [C|C|C].
  - destruct (Z.even fl) eqn:Ev.
    + split; [nia|intros _; exact Ev].
    + split; [nia|intros _]. rewrite Z.even_add, Ev. reflexivity.
  - split; [nia|]. intros [H|H]; exfalso; nia.
  - split; [nia|]. intros [H|H]; exfalso; nia.
Qed.

Lemma nearest_even_unique n D R R' : 0 < D -> nearest_even n D R -> nearest_even n D R' -> R = R'.
Proof.
  intros HD [H T] [H' T']. assert (R <= R' + 1) by nia. assert (R' <= R + 1) by nia.
  destruct (Z.eq_dec R R') as [|Hne]; [assumption|exfalso].
  assert (Hc : R = R' + 1 \/ R' = R + 1) by lia.
  destruct Hc as [-> | ->]; [specialize (T ltac:(lia)); specialize (T' ltac:(lia))..];
    rewrite Z.even_add in *; [rewrite T' in T|rewrite T in T']; discriminate.
Qed.

Lemma round_half_even_abs q : (Qabs (q - inject_Z (round_half_even q)) <= 1 # 2)%Q.
Proof. apply nearest_even_Q, round_half_even_nearest_even. Qed.

Lemma round_half_even_tie q :
  (Qabs (q - inject_Z (round_half_even q)) == 1 # 2)%Q -> Z.even (round_half_even q) = true.
Proof. apply nearest_even_Q, round_half_even_nearest_even. Qed.

Lemma round_half_even_nearest q k :
  (Qabs (q - inject_Z (round_half_even q)) <= Qabs (q - inject_Z k))%Q.
Proof.
  destruct (round_half_even_nearest_even q) as [H _]. set (R := round_half_even q) in *.
  destruct (Z.eq_dec k R) as [->|Hne]; [apply Qle_refl|].
  destruct q as [n d]. unfold Qle, Qabs, Qminus, Qplus, Qopp, inject_Z. cbn [Qnum Qden] in *. nia.
Qed.

(* round_half_even does not depend on how the fraction is written *)
Lemma round_half_even_unique q R :
  (Qabs (q - inject_Z R) <= 1 # 2)%Q ->
  ((Qabs (q - inject_Z R) == 1 # 2)%Q -> Z.even R = true) ->
  R = round_half_even q.
Proof.
  intros HA HT. apply (nearest_even_unique (Qnum q) (Z.pos (Qden q))); [reflexivity|..].
  - now apply nearest_even_Q.
  - apply round_half_even_nearest_even.
Qed.

Lemma round_half_even_proper q q' : (q == q')%Q -> round_half_even q = round_half_even q'.
Proof.
  intros E. apply round_half_even_unique.
  - rewrite <- E. apply round_half_even_abs.
  - rewrite <- E. apply round_half_even_tie.
Qed.

Lemma phys_half_step_Q (v f : Q) : ~ (f == 0)%Q ->
  let raw := round_half_even (v / f) in
  (Qabs (v - inject_Z raw * f) <= Qabs f * (1 # 2))%Q.
Proof.
  intros Hf raw.
  assert (E : (v - inject_Z raw * f == f * (v / f - inject_Z raw))%Q) by (field; assumption).
  rewrite E, Qabs_Qmult. rewrite (Qmult_comm (Qabs f)), (Qmult_comm (Qabs f)).
  apply Qmult_le_compat_r; [apply round_half_even_abs|apply Qabs_nonneg].
Qed.

Lemma round_half_even_int z : round_half_even (inject_Z z) = z.
Proof.
  unfold round_half_even, inject_Z. cbn [Qnum Qden]. rewrite Z.mod_1_r, Z.div_1_r. reflexivity.
Qed.

Definition int_od (od : odvar) : Prop := zmem (od_dt od) INTEGER_TYPES = true.

Lemma encode_phys_int od v : int_od od -> ~ (od_factor od == 0)%Q ->
  encode_phys od v = Ok (round_half_even (v / od_factor od)).
Proof.
  unfold int_od, encode_phys. intros -> Hf. destruct (Qeq_bool (od_factor od) 0) eqn:E; [|reflexivity].
  now apply Qeq_bool_eq in E.
Qed.

Lemma decode_phys_int od raw : int_od od -> decode_phys od raw = Ok (inject_Z raw * od_factor od)%Q.
Proof. unfold int_od, decode_phys. now intros ->. Qed.

Theorem phys_half_step od v : int_od od -> ~ (od_factor od == 0)%Q ->
  let f := od_factor od in
  exists raw, encode_phys od v = Ok raw /\
    raw = round_half_even (v / f) /\
    (forall k, Qabs (v / f - inject_Z raw) <= Qabs (v / f - inject_Z k))%Q /\
    ((Qabs (v / f - inject_Z raw) == 1 # 2)%Q -> Z.even raw = true) /\
    decode_phys od raw = Ok (inject_Z raw * f)%Q /\
    (Qabs (v - inject_Z raw * f) <= Qabs f * (1 # 2))%Q.
Proof.
  intros Hi Hf f. exists (round_half_even (v / f)).
  rewrite (encode_phys_int od v Hi Hf), (decode_phys_int od _ Hi).
  split; [reflexivity|]. split; [reflexivity|]. split; [apply round_half_even_nearest|].
  split; [apply round_half_even_tie|]. split; [reflexivity|]. now apply phys_half_step_Q.
Qed.

(* the physical value of a raw value scales back to that raw value, whatever the factor *)
Theorem phys_raw_roundtrip od raw : int_od od -> ~ (od_factor od == 0)%Q ->
  exists p, decode_phys od raw = Ok p /\ encode_phys od p = Ok raw.
Proof.
  intros Hi Hf. exists (inject_Z raw * od_factor od)%Q.
  rewrite (decode_phys_int od raw Hi), (encode_phys_int od _ Hi Hf). split; [reflexivity|]. f_equal.
  rewrite <- (round_half_even_int raw) at 2. apply round_half_even_proper. field. assumption.
Qed.

Lemma phys_zero_factor od v : int_od od -> (od_factor od == 0)%Q -> encode_phys od v = Err E_OTHER.
Proof.
  intros Hi Hf. unfold encode_phys. unfold int_od in Hi. rewrite Hi. now rewrite (Qeq_eq_bool _ _ Hf).
Qed.

Section Store.
  Context {S : Type} (get_raw : S -> res Z) (set_raw : S -> Z -> res S).
  Context (law : forall s v s', set_raw s v = Ok s' -> get_raw s' = Ok v).
  Context (od : odvar).

  Lemma bits_set_unfold s raw key v : get_raw s = Ok raw ->
    bits_set get_raw set_raw od s key v = rbind (bits_write (od_bitdefs od) raw key v) (set_raw s).
  Proof.
    intros H. unfold bits_set, bits_write. rewrite H. cbn [rbind].
    destruct (get_bits key); reflexivity.
  Qed.

  Lemma bits_get_unfold s raw key : get_raw s = Ok raw ->
    bits_get get_raw od s key = bits_read (od_bitdefs od) raw key.
  Proof. intros H. unfold bits_get, bits_read. now rewrite H. Qed.

  Lemma bits_held_unfold s raw key v : get_raw s = Ok raw ->
    bits_held get_raw set_raw od s key v =
    rbind (bits_write (od_bitdefs od) raw key v) (fun r =>
    rbind (set_raw s r) (fun s' => Ok (s', bits_read (od_bitdefs od) r key))).
  Proof.
    intros H. unfold bits_held, bits_write, bits_read. rewrite H. cbn [rbind].
    destruct (get_bits key); reflexivity.
  Qed.

  Lemma store_bits s raw key lo hi v :
    get_raw s = Ok raw -> spells (od_bitdefs od) key lo hi -> 0 <= lo <= hi -> 0 <= v < 2 ^ (hi - lo + 1) ->
    let r := set_field raw lo (hi - lo + 1) v in
    bits_get get_raw od s key = Ok (get_field raw lo (hi - lo + 1)) /\
    bits_set get_raw set_raw od s key v = set_raw s r /\
    (forall i, 0 <= i ->
       Z.testbit r i = if (lo <=? i) && (i <=? hi) then Z.testbit v (i - lo) else Z.testbit raw i) /\
    forall s', set_raw s r = Ok s' -> get_raw s' = Ok r /\ bits_get get_raw od s' key = Ok v.
  Proof.
    intros Hg Hsp Hl Hv r.
    split; [rewrite (bits_get_unfold s raw key Hg); now apply bits_get_exact|].
    split; [now rewrite (bits_set_unfold s raw key v Hg), (bits_set_field _ key lo hi)|].
    split; [intros i Hi; now apply set_range_spec|].
    intros s' Hs. pose proof (law _ _ _ Hs) as Hg'. split; [exact Hg'|].
    rewrite (bits_get_unfold s' r key Hg'). now apply bits_get_set_field.
  Qed.

  (* the same Bits object read after the assignment returns the value, whatever the store does *)
  Lemma store_bits_held s raw key lo hi v :
    get_raw s = Ok raw -> spells (od_bitdefs od) key lo hi -> 0 <= lo <= hi -> 0 <= v < 2 ^ (hi - lo + 1) ->
    bits_held get_raw set_raw od s key v =
    rbind (set_raw s (set_field raw lo (hi - lo + 1) v)) (fun s' => Ok (s', Ok v)).
  Proof.
    intros Hg Hsp Hl Hv.
    rewrite (bits_held_unfold s raw key v Hg), (bits_set_field _ key lo hi) by assumption. cbn [rbind].
    now rewrite bits_get_set_field.
  Qed.

  (* a store whose read fails: the failure comes out of every getter and out of the read-modify-write
     of a bit field unchanged, and no write is computed (the result carries no new store) *)
  Lemma store_read_fails s :
    (forall a, get_raw s = Abort a ->
       (forall key, bits_get get_raw od s key = Abort a) /\
       (forall key v, bits_set get_raw set_raw od s key v = Abort a) /\
       (forall key v, bits_held get_raw set_raw od s key v = Abort a) /\
       phys_get get_raw od s = Abort a /\ desc_get get_raw od s = Abort a) /\
    (forall k, get_raw s = Err k ->
       (forall key, bits_get get_raw od s key = Err k) /\
       (forall key v, bits_set get_raw set_raw od s key v = Err k) /\
       (forall key v, bits_held get_raw set_raw od s key v = Err k) /\
       phys_get get_raw od s = Err k /\ desc_get get_raw od s = Err k).
  Proof.
    split; intros x He; unfold bits_get, bits_set, bits_held, phys_get, desc_get; rewrite He; repeat split; reflexivity.
  Qed.

  (* a key that the code refuses never reaches the store *)
  Lemma store_bits_error s raw key v k : get_raw s = Ok raw ->
    bits_write (od_bitdefs od) raw key v = Err k -> bits_set get_raw set_raw od s key v = Err k.
  Proof. intros Hg He. now rewrite (bits_set_unfold s raw key v Hg), He. Qed.

  Lemma store_desc s raw : get_raw s = Ok raw -> NoDup (map fst (od_descs od)) ->
    desc_get get_raw od s = decode_desc (od_descs od) raw /\
    (forall d k, encode_desc (od_descs od) d = Err k -> desc_set set_raw od s d = Err k) /\
    forall d v, encode_desc (od_descs od) d = Ok v ->
      desc_set set_raw od s d = set_raw s v /\
      forall s', set_raw s v = Ok s' -> get_raw s' = Ok v /\ desc_get get_raw od s' = Ok d.
  Proof.
    intros Hg Hn. split; [unfold desc_get; now rewrite Hg|]. split.
    - intros d k He. unfold desc_set. now rewrite He.
    - intros d v He. split; [unfold desc_set; now rewrite He|].
      intros s' Hs. pose proof (law _ _ _ Hs) as Hg'. split; [exact Hg'|].
      unfold desc_get. rewrite Hg'. cbn [rbind]. destruct (desc_roundtrip _ Hn) as (H1 & _). now apply H1.
  Qed.

  Lemma store_phys s v : int_od od -> ~ (od_factor od == 0)%Q ->
    let f := od_factor od in
    let raw := round_half_even (v / f) in
    phys_set set_raw od s v = set_raw s raw /\
    forall s', set_raw s raw = Ok s' ->
      get_raw s' = Ok raw /\
      phys_get get_raw od s' = Ok (inject_Z raw * f)%Q /\
      (Qabs (v - inject_Z raw * f) <= Qabs f * (1 # 2))%Q.
  Proof.
    intros Hi Hf f raw. split; [unfold phys_set; now rewrite (encode_phys_int od v Hi Hf)|].
    intros s' Hs. pose proof (law _ _ _ Hs) as Hg'. split; [exact Hg'|]. split; [|now apply phys_half_step_Q].
    unfold phys_get. rewrite Hg'. now apply decode_phys_int.
  Qed.
End Store.

Lemma cell_set_spec t p s w c v : zassoc t STRUCT_TYPES = Some p -> int_packer p = Some (s, w) ->
  if in_range s w v
  then cell_set t c v = Ok {| c_pre := c_pre c; c_cur := le_encode (Z.to_nat (w / 8)) v; c_post := c_post c |}
  else cell_set t c v = Err E_VALUE.
Proof.
  intros Ht Hp. unfold cell_set. rewrite (encode_int t p s w v Ht Hp). now destruct (in_range s w v).
Qed.

Lemma cell_get_encoded t p s w pre post v : zassoc t STRUCT_TYPES = Some p -> int_packer p = Some (s, w) ->
  in_range s w v = true ->
  cell_get t {| c_pre := pre; c_cur := le_encode (Z.to_nat (w / 8)) v; c_post := post |} = Ok v.
Proof. intros Ht Hp E. unfold cell_get. cbn [c_cur]. now rewrite (decode_encode t p s w v Ht Hp E). Qed.

Lemma cell_law t p s w : zassoc t STRUCT_TYPES = Some p -> int_packer p = Some (s, w) ->
  forall c v c', cell_set t c v = Ok c' -> cell_get t c' = Ok v.
Proof.
  intros Ht Hp c v c' H. pose proof (cell_set_spec t p s w c v Ht Hp) as Hs.
  destruct (in_range s w v) eqn:E; rewrite Hs in H; [|discriminate]. injection H as <-.
  now apply (cell_get_encoded t p s w).
Qed.

(* bit-field write on an unsigned object held in a buffer: always accepted when the range lies
   inside the object's width; the neighbours in the buffer are untouched *)
Theorem bits_on_cell od t p w pre post raw key lo hi v :
  zassoc t STRUCT_TYPES = Some p -> int_packer p = Some (false, w) ->
  0 <= raw < 2 ^ w -> spells (od_bitdefs od) key lo hi -> 0 <= lo <= hi -> hi < w -> 0 <= v < 2 ^ (hi - lo + 1) ->
  let n := Z.to_nat (w / 8) in
  let c := {| c_pre := pre; c_cur := le_encode n raw; c_post := post |} in
  let r := set_field raw lo (hi - lo + 1) v in
  let c' := {| c_pre := pre; c_cur := le_encode n r; c_post := post |} in
  bits_set (cell_get t) (cell_set t) od c key v = Ok c' /\
  bits_get (cell_get t) od c' key = Ok v /\
  cell_get t c' = Ok r /\ 0 <= r < 2 ^ w.
Proof.
  intros Ht Hp Hraw Hsp Hl Hh Hv n c r c'.
  assert (Hr : 0 <= r < 2 ^ w) by (apply set_field_bound; lia).
  assert (Hg : cell_get t c = Ok raw) by (apply (cell_get_encoded t p false w); auto; unfold in_range; lia).
  pose proof (cell_set_spec t p false w c r Ht Hp) as Hcs.
  replace (in_range false w r) with true in Hcs by (unfold in_range; lia).
  destruct (store_bits _ _ (cell_law t p false w Ht Hp) od c raw key lo hi v Hg Hsp Hl Hv) as (_ & Hset & _ & Hback).
  destruct (Hback c' Hcs) as (Hg' & Hb). rewrite Hset. auto.
Qed.

(* every CiA 301 integer type is scaled (the regenerated INTEGER_TYPES contains it) *)
Lemma integer_types_b : forallb (fun e => zmem (fst e) INTEGER_TYPES) cia301_int_types = true.
Proof. vm_compute. reflexivity. Qed.

Theorem integer_types_scaled t s w : In (t, (s, w)) cia301_int_types -> zmem t INTEGER_TYPES = true.
Proof. intros H. pose proof integer_types_b as T. rewrite forallb_forall in T. exact (T _ H). Qed.

(* the method route is the attribute route: same observation, same store afterwards *)
Theorem rw_agrees od c :
  (forall v, step_op od c (OWrite FMT_RAW (OSetRaw v)) = step_op od c (OSetRaw v)) /\
  (forall n d, step_op od c (OWrite FMT_PHYS (OSetPhys n d)) = step_op od c (OSetPhys n d)) /\
  (forall d, step_op od c (OWrite FMT_DESC (OSetDesc d)) = step_op od c (OSetDesc d)) /\
  step_op od c (ORead FMT_RAW) = step_op od c OGetRaw /\
  step_op od c (ORead FMT_PHYS) = step_op od c OGetPhys /\
  step_op od c (ORead FMT_DESC) = step_op od c OGetDesc /\
  (forall fmt o, rw_route fmt = 0 -> step_op od c (OWrite fmt o) = (VNone, c) /\ step_op od c (ORead fmt) = (VNone, c)).
Proof.
  repeat split; intros; try reflexivity.
  - unfold step_op. cbn [step_op_g]. now rewrite H.
  - unfold step_op. cbn [step_op_g]. now rewrite H.
Qed.
