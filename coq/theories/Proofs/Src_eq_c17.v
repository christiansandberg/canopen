(* Source tie (DESIGN.md 4.3): PeriodicMessageTask.update, SyncProducer.start/stop and PdoMap.start/stop/update as
   translated from the CURRENT source text (Gen/SrcC17.v) determine the model functions of Model/Periodic.v (C17):
   which of stop / modify_data / _start / send_periodic is called, in which order relative to the period check, and
   what the period attribute and the task handle are afterwards. *)
From Coq Require Import ZArith List.
From CV Require Import Base.Val Gen.PeriodicTables Gen.SrcC17 Model.Periodic.
Import ListNotations.
Open Scope Z_scope.

Definition osome {A} (o : option A) : bool := match o with Some _ => true | None => false end.
Definition oget (o : option Z) : Z := match o with Some x => x | None => 0 end.
Definition mkopt (h : bool) (v : Z) : option Z := if h then Some v else None.

Theorem src_pt_update_eq modify b pt d :
  pt_update modify b pt d =
  let '(stored, act) := src_pt_update modify (list_Z_eqb d (pt_data pt)) false 0 in
  let d' := if stored then d else pt_data pt in
  let pt1 tid := mkP tid (pt_can pt) d' (pt_period pt) (pt_remote pt) in
  if act =? 1 then (bus_modify b (pt_tid pt) d', pt1 (pt_tid pt))
  else if act =? 3 then
    (bus_stop b (pt_tid pt) ++ [mkB (pt_can pt) d' (pt_period pt) (pt_remote pt) true], pt1 (length b))
  else if act =? 0 then (b, pt1 (pt_tid pt))
  else (bus_stop b (pt_tid pt), pt1 (pt_tid pt)).
Proof.
  unfold pt_update, src_pt_update. destruct modify; [reflexivity|].
  destruct (list_Z_eqb d (pt_data pt)); reflexivity.
Qed.

Theorem src_sync_start_eq s p :
  let y := st_sync s in
  let '(stopped, ph, pv, out) :=
    src_sync_start (osome p) (oget p) (osome (sy_period y)) (oget (sy_period y)) false in
  let per := mkopt ph pv in
  let b1 := if stopped then stop_opt (st_bus s) (sy_task y) else st_bus s in
  sync_start s p =
  if out =? 0 then (set_sync s b1 (mkSy per (if stopped then None else sy_task y)), raised E_VALUE)
  else match send_periodic (st_conn s) b1 SYNC_COB_ID [] pv false with
       | Some (b2, pt) => (set_sync s b2 (mkSy per (Some pt)), ok)
       | None => (set_sync s b1 (mkSy per None), raised E_ATTR)
       end.
Proof.
  destruct s as [md cn bs [yp yt] pdos hb gd]. unfold sync_start, src_sync_start, set_sync. cbn [st_sync sy_period sy_task st_bus st_conn st_modify st_pdos st_hb st_guard].
  (* the period in force is the argument if given, else the attribute; with either the method goes on alike *)
  destruct p as [x|]; [|destruct yp as [x|]; [|reflexivity]]; cbn [osome oget negb orb];
    (destruct (x =? 0); cbn [mkopt Z.eqb]; [reflexivity|]);
    destruct (send_periodic cn (stop_opt bs yt) SYNC_COB_ID [] x false) as [[b2 pt]|]; reflexivity.
Qed.

Theorem src_pdo_start_eq conn b pd p :
  let '(stopped, ph, pv, out) :=
    src_pdo_start (osome p) (oget p) (osome (pd_period pd)) (oget (pd_period pd)) false in
  let per := mkopt ph pv in
  let b1 := if stopped then stop_opt b (pd_task pd) else b in
  let pd1 := mkPd (pd_cob pd) (pd_nvars pd) (pd_data pd) per (if stopped then None else pd_task pd) in
  pdo_start1 conn b pd p =
  if out =? 0 then (b1, pd1, raised E_VALUE)
  else match send_periodic conn b1 (pd_cob pd) (pd_data pd) pv false with
       | Some (b2, pt) => (b2, mkPd (pd_cob pd) (pd_nvars pd) (pd_data pd) per (Some pt), ok)
       | None => (b1, pd1, raised E_ATTR)
       end.
Proof.
  destruct pd as [cob nv dat pp pt0]. unfold pdo_start1, src_pdo_start. cbn [pd_cob pd_nvars pd_data pd_period pd_task].
  destruct p as [x|]; [|destruct pp as [x|]; [|reflexivity]]; cbn [osome oget negb orb];
    (destruct (x =? 0); cbn [mkopt Z.eqb]; [reflexivity|]);
    destruct (send_periodic conn (stop_opt b pt0) cob dat x false) as [[b2 pt]|]; reflexivity.
Qed.

Theorem src_pdo_update_eq modify b pd :
  pdo_update1 modify b pd =
  if src_pdo_update_calls (osome (pd_task pd)) false then
    match pd_task pd with
    | Some pt => let '(b1, pt1) := pt_update modify b pt (pd_data pd) in
                 (b1, mkPd (pd_cob pd) (pd_nvars pd) (pd_data pd) (pd_period pd) (Some pt1))
    | None => (b, pd)
    end
  else (b, pd).
Proof. unfold pdo_update1, src_pdo_update_calls. destruct (pd_task pd); reflexivity. Qed.

Theorem src_pdo_stop_eq b pd :
  pdo_stop1 b pd =
  let '(stopped, holds) := src_pdo_stop (osome (pd_task pd)) false true in
  (if stopped then stop_opt b (pd_task pd) else b,
   mkPd (pd_cob pd) (pd_nvars pd) (pd_data pd) (pd_period pd) (if holds then pd_task pd else None)).
Proof. unfold pdo_stop1, src_pdo_stop. destruct (pd_task pd); reflexivity. Qed.

Theorem src_sync_stop_eq s :
  sync_stop s =
  let y := st_sync s in
  let '(stopped, holds) := src_sync_stop (osome (sy_task y)) false true in
  set_sync s (if stopped then stop_opt (st_bus s) (sy_task y) else st_bus s)
           (mkSy (sy_period y) (if holds then sy_task y else None)).
Proof. unfold sync_stop, src_sync_stop. destruct (sy_task (st_sync s)); reflexivity. Qed.
