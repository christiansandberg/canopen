(* Model/SdoLink.v: the library's client model against the library's server model, and the typed layer on
   both (C03).  The server's handlers are characterised on exactly the frames the client sends; the client
   functions are then run step by step against them (no disturbance here, so every step is an equation).
   [codec_roundtrip] is the round trip for any data type; the typed ones are instances of it. *)
From Coq Require Import ZArith List Bool Lia.
From CV Require Import Base.Val Base.Bytes Base.Tys Gen.Tables Gen.SdoTables Model.Codec Model.RefServer Model.SdoClient
  Proofs.SdoClient_proofs Model.SdoServer Model.SdoLink Proofs.Codec_proofs.
Import ListNotations.
Open Scope Z_scope.

Lemma mux_recombine idx sub : mux_ok idx sub ->
  unpack_mux (64 :: mux_bytes idx sub ++ [0; 0; 0; 0]) = Ok (64, idx, sub) /\
  idx mod 256 + 256 * (idx / 256) = idx /\ le_encode 2 idx = [idx mod 256; idx / 256].
Proof.
  unfold mux_ok, mux_bytes. intros [H1 H2]. cbn [app unpack_mux le_encode].
  assert (E : idx mod 256 + 256 * (idx / 256) = idx) by (rewrite Z.add_comm; symmetry; apply Z.div_mod; lia).
  rewrite E. repeat split. f_equal. f_equal. Z.div_mod_to_equations. lia.
Qed.

(* one exchange with a peer that answers *)
Lemma rr_peer_ok {S} (peer : S -> list Z -> S * list (list Z)) (w : @world S) req s' r0 :
  peer (w_s w) req = (s', [r0]) -> nth 0 r0 0 <> 128 -> r0 <> [] ->
  exists w', request_response peer w req = (w', Ok r0) /\ w_s w' = s'.
Proof. intros Hp Hc Hne. rewrite rr_spec, Hp, decode_resp_genuine by auto. eexists. split; reflexivity. Qed.

Definition dl_state (st : sstate) (idx sub : Z) (buf : list Z) (t : bool) : Prop :=
  s_buf st = Some buf /\ s_toggle st = 16 * b2z t /\ s_index st = idx /\ s_sub st = sub.

Lemma srv_init_dl d st idx sub z : mux_ok idx sub ->
  srv_peer d st ((33 :: mux_bytes idx sub) ++ le_encode 4 z) =
  (set_buf (set_mux st idx sub) (Some []) 0, [96 :: mux_bytes idx sub ++ [0; 0; 0; 0]]).
Proof.
  intros Hm. destruct (mux_recombine idx sub Hm) as (_ & E & E2).
  unfold srv_peer, on_request, mux_bytes. cbn [app le_encode].
  change (Z.land 33 224 =? REQUEST_UPLOAD) with false. change (Z.land 33 224 =? REQUEST_SEGMENT_UPLOAD) with false.
  change (Z.land 33 224 =? REQUEST_DOWNLOAD) with true. cbn iota.
  unfold init_download. cbn [unpack_mux]. rewrite E.
  change (negb (Z.land 33 EXPEDITED =? 0)) with false. cbn iota.
  change (negb (Z.land 33 SIZE_SPECIFIED =? 0)) with true. unfold zlen. cbn [length andb Z.of_nat].
  change (Z.pos (Pos.of_succ_nat 7) <? 8) with false. cbn iota.
  rewrite E2. reflexivity.
Qed.

Lemma set_data_ok d st idx sub v data : entry_rw d idx sub v -> length_ok v data = true ->
  set_data d st idx sub data true = (store_put (log_ev st (EvW idx sub data)) idx sub data, Ok tt).
Proof.
  intros (Hf & Hw & _) Hl. unfold set_data, check_set. rewrite Hf. cbn [rbind]. rewrite Hw. cbn [negb andb].
  unfold length_ok in Hl. destruct (is_number v); cbn [negb orb andb] in *; [rewrite Hl|]; reflexivity.
Qed.

(* a download segment as the client sends it *)
Lemma srv_seg_dl d st idx sub v buf t last (chunk : list Z) :
  dl_state st idx sub buf t -> (length chunk <= 7)%nat ->
  (last = true -> entry_rw d idx sub v /\ length_ok v (buf ++ chunk) = true) ->
  srv_peer d st (seg_cmd t last (zlen chunk) :: pad_to 7 chunk) =
  (let st1 := set_buf st (Some (buf ++ chunk)) (s_toggle st) in
   let st2 := if last then store_put (log_ev st1 (EvW idx sub (buf ++ chunk))) idx sub (buf ++ chunk) else st1 in
   set_buf st2 (s_buf st2) (16 * b2z (negb t)),
   [[32 + 16 * b2z t; 0; 0; 0; 0; 0; 0; 0]]).
Proof.
  intros (Hb & Ht & Hi & Hs) Hl Hlast.
  assert (Hn : 0 <= zlen chunk <= 7) by (unfold zlen; lia).
  destruct (seg_cmd_bits t last (zlen chunk) Hn) as [_ (C1 & C2 & C3 & C4)].
  unfold srv_peer, on_request.
  change (Z.land (seg_cmd t last (zlen chunk)) 224) with (Z.land (seg_cmd t last (zlen chunk)) 224). rewrite C1.
  change (0 =? REQUEST_UPLOAD) with false. change (0 =? REQUEST_SEGMENT_UPLOAD) with false.
  change (0 =? REQUEST_DOWNLOAD) with false. change (0 =? REQUEST_SEGMENT_DOWNLOAD) with true. cbn iota.
  unfold segmented_download, TOGGLE_BIT, NO_MORE_DATA, RESPONSE_SEGMENT_DOWNLOAD.
  rewrite C2, Ht, Z.eqb_refl, Hb, C3, C4. cbn [negb].
  replace (Z.to_nat (8 - (7 - zlen chunk) - 1)) with (length chunk) by (unfold zlen; lia).
  cbn [skipn]. rewrite firstn_pad_to, toggle_flip.
  replace (Z.lor 32 (16 * b2z t)) with (32 + 16 * b2z t) by (destruct t; reflexivity).
  destruct last; cbn [negb].
  - destruct (Hlast eq_refl) as [He Hlen]. rewrite Hi, Hs.
    rewrite (set_data_ok d _ idx sub v (buf ++ chunk) He Hlen). reflexivity.
  - reflexivity.
Qed.

Lemma srv_exp_dl d st idx sub v (b : list Z) : mux_ok idx sub -> 1 <= zlen b <= 4 ->
  entry_rw d idx sub v -> length_ok v b = true ->
  srv_peer d st ((exp_cmd (zlen b) :: mux_bytes idx sub) ++ pad_to 4 b) =
  (store_put (log_ev (set_mux st idx sub) (EvW idx sub b)) idx sub b, [96 :: mux_bytes idx sub ++ [0; 0; 0; 0]]).
Proof.
  intros Hm Hb He Hl. destruct (mux_recombine idx sub Hm) as (_ & E & E2).
  assert (Hx : forall z, 1 <= z <= 4 -> Z.land (exp_cmd z) 224 = 32 /\ negb (Z.land (exp_cmd z) EXPEDITED =? 0) = true /\
                 negb (Z.land (exp_cmd z) SIZE_SPECIFIED =? 0) = true /\ 4 - Z.land (Z.shiftr (exp_cmd z) 2) 3 = z).
  { intros z Hz. assert (Ez : z = 1 \/ z = 2 \/ z = 3 \/ z = 4) by lia.
    decompose [or] Ez; subst; vm_compute; repeat split; reflexivity. }
  destruct (Hx (zlen b) Hb) as (X1 & X2 & X3 & X4).
  unfold srv_peer, on_request, mux_bytes. cbn [app]. rewrite X1.
  change (32 =? REQUEST_UPLOAD) with false. change (32 =? REQUEST_SEGMENT_UPLOAD) with false.
  change (32 =? REQUEST_DOWNLOAD) with true. cbn iota.
  unfold init_download. cbn [unpack_mux]. rewrite E, X2, X3, X4. cbn iota.
  cbn [skipn]. unfold zlen. rewrite Nat2Z.id, firstn_pad_to.
  rewrite (set_data_ok d _ idx sub v b He Hl). rewrite E2. reflexivity.
Qed.

Lemma get_data_stored d st idx sub v data chk : entry_rw d idx sub v ->
  store_get (s_store st) idx sub = Some data ->
  get_data d no_rcb st idx sub chk = (log_ev st (EvR idx sub), Ok data).
Proof.
  intros (Hf & _ & Hr) Hg. unfold get_data. rewrite Hf, Hr. cbn [negb andb]. rewrite andb_false_r.
  unfold no_rcb. rewrite Hg. reflexivity.
Qed.

(* initiate upload of stored data: the answer is that of the conformant server of C01 in its default style *)
Lemma srv_init_ul d st idx sub v data : mux_ok idx sub -> entry_rw d idx sub v ->
  store_get (s_store st) idx sub = Some data -> zlen data < 2 ^ 32 ->
  srv_peer d st (ul_init_req idx sub) =
  (let st2 := log_ev (set_mux st idx sub) (EvR idx sub) in
   if (0 <? zlen data) && (zlen data <=? 4) then st2 else set_buf st2 (Some data) 0,
   [ul_init_resp default_style idx sub data]).
Proof.
  intros Hm He Hg Hl. destruct (mux_recombine idx sub Hm) as (Hu & E & E2).
  unfold srv_peer, on_request, ul_init_req. unfold mux_bytes at 1. cbn [app].
  change (Z.land 64 224 =? REQUEST_UPLOAD) with true. cbn iota.
  unfold init_upload. unfold ul_init_req, mux_bytes in Hu. cbn [app] in Hu. rewrite Hu.
  rewrite (get_data_stored d (set_mux st idx sub) idx sub v data true He) by exact Hg.
  unfold ul_init_resp, default_style. cbn [st_expedite st_exp_size st_size_ind andb].
  replace ((1 <=? zlen data) && (zlen data <=? 4)) with ((0 <? zlen data) && (zlen data <=? 4)) by lia.
  destruct ((0 <? zlen data) && (zlen data <=? 4)) eqn:Ee.
  - assert (Ez : zlen data = 1 \/ zlen data = 2 \/ zlen data = 3 \/ zlen data = 4) by lia.
    rewrite E2. unfold RESPONSE_UPLOAD, SIZE_SPECIFIED, EXPEDITED, mux_bytes, pad_to. cbn [app].
    replace (Z.lor (Z.lor (Z.lor 64 1) 2) (Z.shiftl (4 - zlen data) 2)) with (67 + 4 * (4 - zlen data))
      by (decompose [or] Ez; match goal with H : zlen data = _ |- _ => rewrite H end; reflexivity).
    reflexivity.
  - replace (zlen data <? 2 ^ 32) with true by lia. rewrite E2. reflexivity.
Qed.

Definition ul_state (st : sstate) (buf : list Z) (t : bool) : Prop :=
  s_buf st = Some buf /\ s_toggle st = 16 * b2z t.

Lemma srv_seg_ul d st buf t : ul_state st buf t ->
  srv_peer d st (ul_seg_req t) =
  (set_buf st (Some (skipn 7 buf)) (16 * b2z (negb t)),
   [seg_resp t (firstn 7 buf) (is_nil (skipn 7 buf))]).
Proof.
  intros (Hb & Ht). unfold srv_peer, on_request, ul_seg_req.
  replace (Z.land (Z.lor 96 (16 * b2z t)) 224 =? REQUEST_UPLOAD) with false by (destruct t; reflexivity).
  replace (Z.land (Z.lor 96 (16 * b2z t)) 224 =? REQUEST_SEGMENT_UPLOAD) with true by (destruct t; reflexivity).
  cbn iota. unfold segmented_upload, TOGGLE_BIT, RESPONSE_SEGMENT_UPLOAD, NO_MORE_DATA.
  replace (Z.land (Z.lor 96 (16 * b2z t)) 16) with (16 * b2z t) by (destruct t; reflexivity).
  rewrite Ht, Z.eqb_refl, Hb. cbn [negb]. rewrite toggle_flip. unfold seg_resp, pad_to.
  set (chunk := firstn 7 buf).
  assert (Hc : (length chunk <= 7)%nat) by (unfold chunk; rewrite firstn_length; lia).
  assert (Ez : zlen chunk = 0 \/ zlen chunk = 1 \/ zlen chunk = 2 \/ zlen chunk = 3 \/ zlen chunk = 4 \/
               zlen chunk = 5 \/ zlen chunk = 6 \/ zlen chunk = 7) by (unfold zlen; lia).
  f_equal. f_equal. f_equal.
  destruct (skipn 7 buf); cbn [is_nil b2z]; destruct t; cbn [b2z];
    decompose [or] Ez; match goal with H : zlen chunk = _ |- _ => rewrite H end; reflexivity.
Qed.

Section LinkDownload.
  Context (d : dict) (idx sub : Z) (v : var).
  Context (Hm : mux_ok idx sub) (He : entry_rw d idx sub v).
  Let peer := srv_peer d.

  (* one download segment as write() or close() sends it: the last one commits the buffer *)
  Lemma l_segment (w : lworld) buf t last (chunk : list Z) :
    dl_state (w_s w) idx sub buf t -> (length chunk <= 7)%nat -> (last = true -> length_ok v (buf ++ chunk) = true) ->
    exists w', request_response peer w (seg_cmd t last (zlen chunk) :: pad_to 7 chunk) =
                 (w', Ok [32 + 16 * b2z t; 0; 0; 0; 0; 0; 0; 0]) /\
      if last then s_store (w_s w') = ((idx, sub), buf ++ chunk) :: s_store (w_s w)
      else dl_state (w_s w') idx sub (buf ++ chunk) (negb t) /\ s_store (w_s w') = s_store (w_s w).
  Proof.
    intros Hdl Hc7 Hlen.
    pose proof (srv_seg_dl d (w_s w) idx sub v buf t last chunk Hdl Hc7 (fun H => conj He (Hlen H))) as Hsrv.
    destruct (rr_peer_ok peer w _ _ _ Hsrv ltac:(destruct t; discriminate) ltac:(discriminate)) as (w' & E & Hs).
    exists w'. split; [exact E|]. rewrite Hs. destruct Hdl as (_ & _ & Hi & Hsu).
    destruct last; [reflexivity|]. unfold dl_state. cbn. auto.
  Qed.

  (* the write loop, then close(), for a stream that knows its size *)
  Lemma l_write_close z : forall sched data (w : lworld) buf t,
    dl_state (w_s w) idx sub buf t -> z = zlen buf + zlen data ->
    valid_seg_sched sched (zlen data) -> length_ok v (buf ++ data) = true ->
    exists w', (let '(w1, st1, r1) := write_sched peer w (open_stream (Some z) (zlen buf) t) data sched in
                let '(w2, _, r2) := ws_close peer w1 st1 in (w2, match r2 with Ok _ => r1 | _ => r2 end)) = (w', Ok tt) /\
               s_store (w_s w') = ((idx, sub), buf ++ data) :: s_store (w_s w).
  Proof.
    induction sched as [|k ks IH]; intros data w buf t Hdl Hz Hv Hlen.
    - apply zlen_nil_inv in Hv. subst data. rewrite app_nil_r in *. cbn [write_sched]. rewrite ws_close_open.
      destruct (l_segment w buf t true [] Hdl ltac:(cbn; lia) ltac:(rewrite app_nil_r; auto)) as (w' & E & Hs).
      change (zlen []) with 0 in E. rewrite E, app_nil_r in *. eauto.
    - destruct (write_sched_open peer w (Some z) (zlen buf) t data k ks Hv (or_intror (f_equal Some Hz)))
        as (chunk & rest & -> & Hc7 & Hv' & ->).
      destruct (l_segment w buf t (is_nil rest) chunk Hdl Hc7) as (w1 & -> & Hs1).
      { intros H. apply is_nil_true in H. subst rest. rewrite app_nil_r in Hlen. exact Hlen. }
      replace (Z.land (nth 0 [32 + 16 * b2z t; 0; 0; 0; 0; 0; 0; 0] 0) 224 =? 32) with true by (destruct t; reflexivity).
      destruct rest as [|x rest]; cbn [is_nil] in *.
      + (* the last segment: everything has been sent *)
        rewrite ws_close_done, app_nil_r by reflexivity. eauto.
      + destruct Hs1 as [Hdl1 Hst1]. rewrite zlen_app, app_assoc in *.
        destruct (IH (x :: rest) w1 (buf ++ chunk) (negb t) Hdl1) as (w2 & E2 & Hs2); [rewrite zlen_app; lia|auto..|].
        rewrite zlen_app in E2. exists w2. split; [exact E2|]. rewrite Hs2, Hst1. reflexivity.
  Qed.

  (* SdoClient.download(index, subindex, data, force_segment) *)
  Lemma link_download (w : lworld) data force sched :
    length_ok v data = true -> zlen data < 2 ^ 32 ->
    valid_sched (expedited (Some (zlen data)) force) sched (zlen data) ->
    exists w', sdo_download peer w idx sub data force sched = (w', Ok tt) /\
               s_store (w_s w') = ((idx, sub), data) :: s_store (w_s w).
  Proof.
    intros Hlen Hl Hv. pose proof (zlen_nonneg data) as H0.
    unfold sdo_download, with_write. destruct (expedited (Some (zlen data)) force) eqn:Eexp; unfold valid_sched in Hv.
    - destruct (expedited_inv _ _ Eexp) as (z & [= <-] & Hr & ->). subst sched.
      rewrite ws_init_exp by auto. cbn [write_sched]. rewrite firstn_all2 by (unfold zlen; lia). rewrite ws_write_exp_eq by auto.
      destruct (rr_peer_ok peer w _ _ _ (srv_exp_dl d (w_s w) idx sub v data Hm Hr He Hlen) ltac:(discriminate) ltac:(discriminate))
        as (w1 & -> & Hs1).
      cbn [nth]. change (Z.land 96 224 =? 96) with true. cbn iota. rewrite ws_close_done by reflexivity. eexists. split; [reflexivity|]. rewrite Hs1. reflexivity.
    - rewrite ws_init_seg_eq by (auto; cbn; lia).
      destruct (rr_peer_ok peer w _ _ _ (srv_init_dl d (w_s w) idx sub (zlen data) Hm) ltac:(discriminate) ltac:(discriminate))
        as (w0 & -> & Hs0).
      cbn [nth Z.eqb Pos.eqb].
      destruct (l_write_close (zlen data) sched data w0 [] false) as (w1 & E1 & Hs1); auto.
      { rewrite Hs0. unfold dl_state. cbn. auto. }
      exists w1. split; [exact E1|]. rewrite Hs1, Hs0. reflexivity.
  Qed.
End LinkDownload.

(* a segmented ReadableStream between two reads *)
Definition seg_reader (size : option Z) (pos : Z) (t done : bool) : rstream :=
  {| rs_done := done; rs_toggle := 16 * b2z t; rs_pos := pos; rs_size := size; rs_exp := None; rs_pending := [] |}.

Section LinkUpload.
  Context (d : dict) (idx sub : Z) (v : var).
  Context (Hm : mux_ok idx sub) (He : entry_rw d idx sub v).
  Let peer := srv_peer d.

  Lemma l_rs_init (w : lworld) data : store_get (s_store (w_s w)) idx sub = Some data -> zlen data < 2 ^ 32 ->
    exists w', rs_init peer w idx sub = (w', init_state default_style data, Ok tt) /\
      s_store (w_s w') = s_store (w_s w) /\
      ((0 <? zlen data) && (zlen data <=? 4) = false -> ul_state (w_s w') data false).
  Proof.
    intros Hg Hl. rewrite rs_init_unfold by auto.
    pose proof (srv_init_ul d (w_s w) idx sub v data Hm He Hg Hl) as Hsrv. cbv zeta in Hsrv.
    destruct (ul_init_resp_hd default_style idx sub data) as [Hn128 Hne].
    destruct (rr_peer_ok peer w _ _ _ Hsrv Hn128 Hne) as (w' & E & Hs).
    rewrite E, (init_decode_genuine default_style idx sub data Hm Hl).
    exists w'. split; [reflexivity|]. rewrite Hs.
    destruct ((0 <? zlen data) && (zlen data <=? 4)); cbn; split; auto; try discriminate.
    intros _. unfold ul_state. cbn. auto.
  Qed.

  (* the server never sends an empty segment that is not the last *)
  Lemma l_rs_read (w : lworld) size pos buf t fuel : ul_state (w_s w) buf t ->
    exists w', rs_read peer (S fuel) w (seg_reader size pos t false) =
                 (w', seg_reader size (pos + zlen (firstn 7 buf)) (negb t) (is_nil (skipn 7 buf)), Ok (firstn 7 buf)) /\
      ul_state (w_s w') (skipn 7 buf) (negb t) /\ s_store (w_s w') = s_store (w_s w).
  Proof.
    intros Hul. set (chunk := firstn 7 buf). set (last := is_nil (skipn 7 buf)).
    assert (Hck : (length chunk <= 7)%nat) by (unfold chunk; rewrite firstn_length; lia).
    destruct (seg_resp_bits t chunk last Hck) as (_ & _ & _ & _ & B5).
    destruct (rr_peer_ok peer w _ _ _ (srv_seg_ul d (w_s w) buf t Hul) B5 ltac:(discriminate)) as (w' & E & Hs).
    rewrite (rs_read_genuine peer fuel w w' (seg_reader size pos t false) t eq_refl eq_refl eq_refl eq_refl chunk last Hck E).
    cbv zeta.
    replace ((zlen chunk =? 0) && negb last) with false.
    2:{ destruct (zlen chunk =? 0) eqn:E0; [|reflexivity]. apply Z.eqb_eq, zlen_nil_inv in E0.
        unfold last. destruct buf; [reflexivity|discriminate]. }
    exists w'. split; [reflexivity|]. rewrite Hs. unfold ul_state. cbn. auto.
  Qed.

  (* the fuel: one read per seven bytes, rounded up, and the read that returns b"" after the last segment *)
  Lemma l_readall : forall fuel rf (w : lworld) size pos buf t acc,
    ul_state (w_s w) buf t -> (length buf + 14 <= 7 * fuel)%nat ->
    exists w' st', readall peer (S rf) fuel w (seg_reader size pos t false) acc = (w', st', Ok (acc ++ buf)) /\
                   s_store (w_s w') = s_store (w_s w).
  Proof.
    induction fuel as [|fuel IH]; intros rf w size pos buf t acc Hul Hf; [lia|]. cbn [readall].
    destruct (l_rs_read w size pos buf t rf Hul) as (w1 & -> & Hul1 & Hs1).
    pose proof (firstn_skipn 7 buf) as Hsplit. pose proof (skipn_length 7 buf) as Hlen.
    destruct (firstn 7 buf) as [|y ch] eqn:Ech.
    - destruct buf; [|discriminate]. rewrite app_nil_r. eauto.
    - destruct (skipn 7 buf) as [|z rest]; rewrite <- Hsplit.
      + (* that was the last segment: the next read returns b"" *)
        destruct fuel as [|fuel]; [lia|]. cbn [readall]. rewrite rs_read_done by reflexivity.
        rewrite app_nil_r. eauto.
      + cbn [is_nil length] in *.
        destruct (IH rf w1 size (pos + zlen (y :: ch)) (z :: rest) (negb t) (acc ++ y :: ch) Hul1 ltac:(cbn [length]; lia)) as (w2 & st2 & E2 & Hs2).
        rewrite E2, <- app_assoc. exists w2, st2. split; [reflexivity|congruence].
  Qed.

  (* SdoClient.upload(index, subindex) *)
  Lemma link_upload (w : lworld) odt data :
    store_get (s_store (w_s w)) idx sub = Some data -> zlen data < 2 ^ 32 -> (length data + 14 <= 7 * FUEL)%nat ->
    trunc_ok odt data ->
    exists w', sdo_upload peer FUEL w idx sub odt = (w', Ok data) /\ s_store (w_s w') = s_store (w_s w).
  Proof.
    intros Hg Hl Hf Htr. unfold sdo_upload, read_whole.
    destruct (l_rs_init w data Hg Hl) as (w0 & -> & Hs0 & Hul0).
    assert (Htrunc : truncate odt (Some (zlen data)) data = data).
    { unfold truncate, trunc_ok in *. destruct odt as [t|]; [|reflexivity].
      destruct (od_var_size t) as [vs|]; [|reflexivity]. replace (vs <? zlen data) with false by lia. reflexivity. }
    unfold init_state, default_style. cbn [st_expedite st_exp_size st_size_ind andb].
    replace ((1 <=? zlen data) && (zlen data <=? 4)) with ((0 <? zlen data) && (zlen data <=? 4)) by lia.
    destruct ((0 <? zlen data) && (zlen data <=? 4)) eqn:Ee; cbn [rs_exp rs_size].
    - rewrite Htrunc. eauto.
    - destruct (l_readall FUEL (Nat.pred FUEL) w0 (Some (zlen data)) 0 data false [] (Hul0 eq_refl) Hf) as (w1 & st1 & E1 & Hs1).
      change (S (Nat.pred FUEL)) with FUEL in E1. change (seg_reader (Some (zlen data)) 0 false false) with
        {| rs_done := false; rs_toggle := 0; rs_pos := 0; rs_size := Some (zlen data); rs_exp := None; rs_pending := [] |} in E1.
      rewrite E1. cbn [app]. rewrite Htrunc. exists w1. split; [reflexivity|congruence].
  Qed.
End LinkUpload.

(* any data type: whatever the codec makes of the value survives the trip *)
Lemma codec_roundtrip nd (w : lworld) a idx sub dt value data back sched :
  registered nd a idx sub dt -> mux_ok idx sub ->
  encode_raw (Some dt) value = Ok data -> decode_raw (Some dt) data = Ok back ->
  length_ok (rw_var dt) data = true -> zlen data < 2 ^ 32 -> (length data + 14 <= 7 * FUEL)%nat ->
  trunc_ok (Some dt) data ->
  valid_sched (expedited (Some (zlen data)) (dt =? dt_DOMAIN)) sched (zlen data) ->
  exists w', roundtrip nd w a value sched = (w', VL [pyval_val back; pyval_val back; VB data]) /\
             store_get (s_store (w_s w')) idx sub = Some data.
Proof.
  intros ((name & Hres) & He & Hod) Hm Henc Hdec Hlen Hl Hf Htr Hv.
  assert (Hkey : forall st, store_get (((idx, sub), data) :: st) idx sub = Some data).
  { intros st. cbn [store_get]. unfold key_eqb. cbn [fst snd]. rewrite !Z.eqb_refl. reflexivity. }
  unfold roundtrip, remote_set. rewrite Hres. cbn [nv_var nv_index nv_sub rw_var v_dt]. rewrite Henc.
  destruct (link_download (to_dict nd) _ _ _ Hm He w data _ sched Hlen Hl Hv) as (w1 & -> & Hs1).
  unfold remote_get. rewrite Hres. cbn [nv_var nv_index nv_sub rw_var v_dt]. rewrite Hod.
  assert (Hg1 : store_get (s_store (w_s w1)) idx sub = Some data) by (rewrite Hs1; apply Hkey).
  destruct (link_upload (to_dict nd) _ _ _ Hm He w1 _ data Hg1 Hl Hf Htr) as (w2 & -> & Hs2).
  cbn [rbind]. rewrite Hdec.
  unfold local_get. rewrite Hres. cbn [nv_var nv_index nv_sub rw_var v_dt].
  assert (Hg2 : store_get (s_store (w_s w2)) idx sub = Some data) by (rewrite Hs2; exact Hg1).
  rewrite (get_data_stored (to_dict nd) (w_s w2) _ _ _ data false He Hg2). cbn [rbind]. rewrite Hdec.
  cbn [w_s log_ev s_store]. rewrite Hg2. eexists. split; [reflexivity|]. exact Hg2.
Qed.

(* how a variable registered in the named dictionary is found by the server and by get_variable *)
Lemma zassoc_to_dict nd idx : zassoc idx (to_dict nd) =
  match zassoc idx nd with
  | Some (NVar v) => Some (OVar (nv_var v))
  | Some (NRec _ ms) => Some (ORec (map (fun m => (nv_sub m, nv_var m)) ms))
  | None => None
  end.
Proof.
  induction nd as [|[i o] r IH]; cbn; [reflexivity|]. destruct (idx =? i); [destruct o; reflexivity|exact IH].
Qed.

Lemma zassoc_members sub ms : zassoc sub (map (fun m => (nv_sub m, nv_var m)) ms) =
  match member_by_sub sub ms with Some m => Some (nv_var m) | None => None end.
Proof.
  induction ms as [|m r IH]; cbn; [reflexivity|]. rewrite Z.eqb_sym. destruct (nv_sub m =? sub); [reflexivity|exact IH].
Qed.

Lemma rw_var_flags dt : writable (rw_var dt) = true /\ readable (rw_var dt) = true.
Proof. split; reflexivity. Qed.

Lemma holds_var_facts nd idx sub dt name : holds_var nd idx sub dt name ->
  entry_rw (to_dict nd) idx sub (rw_var dt) /\ od_type nd idx sub = Some dt /\
  exists a, resolve nd a = Ok {| nv_name := name; nv_index := idx; nv_sub := sub; nv_var := rw_var dt |}.
Proof.
  intros [[-> Hz]|(rname & ms & Hz & Hmem)].
  - split; [|split].
    + split; [|apply rw_var_flags]. unfold find_object. rewrite zassoc_to_dict, Hz. reflexivity.
    + unfold od_type. rewrite Hz. reflexivity.
    + exists (AIndex idx). cbn. rewrite Hz. reflexivity.
  - split; [|split].
    + split; [|apply rw_var_flags]. unfold find_object. rewrite zassoc_to_dict, Hz, zassoc_members, Hmem. reflexivity.
    + unfold od_type. rewrite Hz, Hmem. reflexivity.
    + exists (ARec idx sub). cbn. rewrite Hz, Hmem. reflexivity.
Qed.

Lemma struct_roundtrip nd (w : lworld) a idx sub t p value data back sched :
  registered nd a idx sub t -> mux_ok idx sub ->
  zassoc t STRUCT_TYPES = Some p -> zlen data = packer_bytes p ->
  encode_raw (Some t) value = Ok data -> decode_raw (Some t) data = Ok back ->
  valid_sched (expedited (Some (zlen data)) (t =? dt_DOMAIN)) sched (zlen data) ->
  exists w', roundtrip nd w a value sched = (w', VL [pyval_val back; pyval_val back; VB data]) /\
             store_get (s_store (w_s w')) idx sub = Some data.
Proof.
  intros Hreg Hm Hp Hlen Henc Hdec Hv.
  assert (Hpb : 0 <= packer_bytes p <= 8).
  { pose proof (entry_ok_of _ _ Hp) as E. unfold entry_ok in E. destruct p; cbn [packer_bytes];
      unfold struct_width_ok, width_ok in E; Z.div_mod_to_equations; lia. }
  apply (codec_roundtrip nd w a idx sub t value data back sched); auto.
  - unfold length_ok, is_number. cbn [rw_var v_dt]. destruct (zmem t NUMBER_TYPES); [|reflexivity]. cbn [negb orb].
    unfold len_bits. rewrite Hp. destruct p; cbn [packer_bits packer_bytes] in *; Z.div_mod_to_equations; lia.
  - lia.
  - unfold zlen in *. unfold FUEL. lia.
  - unfold trunc_ok, od_var_size. rewrite Hp. lia.
Qed.

Lemma int_packer_bytes p s w : int_packer p = Some (s, w) -> packer_bytes p = w / 8.
Proof. destruct p; cbn; intros H; inversion H; reflexivity. Qed.

Lemma typed_roundtrip nd (w : lworld) a idx sub t p s wd v sched :
  registered nd a idx sub t -> mux_ok idx sub ->
  zassoc t STRUCT_TYPES = Some p -> int_packer p = Some (s, wd) -> in_range s wd v = true ->
  valid_sched (expedited (Some (wd / 8)) (t =? dt_DOMAIN)) sched (wd / 8) ->
  exists w', roundtrip nd w a (PInt v) sched =
               (w', VL [VZ v; VZ v; VB (le_encode (Z.to_nat (wd / 8)) v)]) /\
             store_get (s_store (w_s w')) idx sub = Some (le_encode (Z.to_nat (wd / 8)) v).
Proof.
  intros Hreg Hm Hp Hip Hr Hv.
  destruct (packer_wf_of t p s wd Hp Hip) as (_ & Hw). pose proof (width_div wd Hw) as (Hd & _ & _).
  assert (Hz : zlen (le_encode (Z.to_nat (wd / 8)) v) = wd / 8) by (rewrite zlen_le_encode; lia).
  apply (struct_roundtrip nd w a idx sub t p (PInt v) _ (PInt v) sched Hreg Hm Hp).
  - rewrite Hz. symmetry. apply (int_packer_bytes p s wd Hip).
  - apply (encode_exact t p s wd v Hp Hip Hr).
  - apply (decode_encode t p s wd v Hp Hip Hr).
  - rewrite Hz. exact Hv.
Qed.

Lemma bool_roundtrip nd (w : lworld) a idx sub (b : bool) :
  registered nd a idx sub dt_BOOLEAN -> mux_ok idx sub -> zassoc dt_BOOLEAN STRUCT_TYPES = Some PBool ->
  exists w', roundtrip nd w a (PInt (if b then 1 else 0)) [1] =
               (w', VL [VZ (if b then 1 else 0); VZ (if b then 1 else 0); VB [if b then 1 else 0]]) /\
             store_get (s_store (w_s w')) idx sub = Some [if b then 1 else 0].
Proof.
  intros Hreg Hm Hp. destruct (bool_codec b Hp) as [Henc Hdec].
  apply (struct_roundtrip nd w a idx sub dt_BOOLEAN PBool _ _ (PInt (if b then 1 else 0)) [1] Hreg Hm Hp); auto.
  reflexivity.
Qed.

Lemma real_roundtrip nd (w : lworld) a idx sub t wd bits sched :
  registered nd a idx sub t -> mux_ok idx sub -> zassoc t STRUCT_TYPES = Some (PReal wd) -> 0 <= bits < 2 ^ wd ->
  valid_sched (expedited (Some (wd / 8)) (t =? dt_DOMAIN)) sched (wd / 8) ->
  exists w', roundtrip nd w a (PFloat bits) sched =
               (w', VL [VL [VZ bits]; VL [VZ bits]; VB (le_encode (Z.to_nat (wd / 8)) bits)]) /\
             store_get (s_store (w_s w')) idx sub = Some (le_encode (Z.to_nat (wd / 8)) bits).
Proof.
  intros Hreg Hm Hp Hb Hv. destruct (real_codec t wd bits Hp Hb) as [Henc Hdec].
  pose proof (real_width t wd Hp) as Hw.
  assert (Hz : zlen (le_encode (Z.to_nat (wd / 8)) bits) = wd / 8) by (rewrite zlen_le_encode; Z.div_mod_to_equations; lia).
  apply (struct_roundtrip nd w a idx sub t (PReal wd) (PFloat bits) _ (PFloat bits) sched Hreg Hm Hp); auto.
  rewrite Hz. exact Hv.
Qed.

Lemma bytes_roundtrip nd (w : lworld) a idx sub dt data sched :
  registered nd a idx sub dt -> dt = dt_DOMAIN \/ dt = dt_OCTET_STRING -> mux_ok idx sub ->
  zlen data < 2 ^ 32 -> (length data + 14 <= 7 * FUEL)%nat ->
  valid_sched (expedited (Some (zlen data)) (dt =? dt_DOMAIN)) sched (zlen data) ->
  exists w', roundtrip nd w a (PBytes data) sched = (w', VL [VB data; VB data; VB data]) /\
             store_get (s_store (w_s w')) idx sub = Some data.
Proof.
  intros Hreg Hdt Hm Hl Hf Hv.
  apply (codec_roundtrip nd w a idx sub dt (PBytes data) data (PBytes data) sched); auto;
    destruct Hdt as [-> | ->]; try reflexivity; exact I.
Qed.

Lemma ascii_text_roundtrip nd (w : lworld) a idx sub s sched :
  registered nd a idx sub dt_VISIBLE_STRING -> mux_ok idx sub ->
  forallb is_ascii s = true -> last s 1 <> 0 -> (length s + 14 <= 7 * FUEL)%nat ->
  valid_sched (expedited (Some (zlen s)) false) sched (zlen s) ->
  exists w', roundtrip nd w a (PStr s) sched = (w', VL [VS s; VS s; VB s]) /\
             store_get (s_store (w_s w')) idx sub = Some s.
Proof.
  intros Hreg Hm Ha Hlast Hf Hv. destruct (ascii_roundtrip s Ha Hlast) as [Henc Hdec].
  apply (codec_roundtrip nd w a idx sub dt_VISIBLE_STRING (PStr s) s (PStr s) sched); auto.
  - unfold zlen, FUEL in *. lia.
  - exact I.
Qed.

Lemma delivered_app cob t1 t2 : delivered cob (t1 ++ t2) = delivered cob t1 ++ delivered cob t2.
Proof. unfold delivered. rewrite filter_app, map_app. reflexivity. Qed.

Lemma delivered_other cob cid fr t1 t2 : cid <> cob ->
  delivered cob (t1 ++ (cid, fr) :: t2) = delivered cob (t1 ++ t2).
Proof.
  intros H. rewrite !delivered_app. f_equal. unfold delivered. cbn [filter fst].
  replace (cid =? cob) with false by lia. reflexivity.
Qed.

Lemma notify_all_spec subs : forall trace queues,
  notify_all subs queues trace =
  map (fun '(c, q) => (c, if zmem c subs then q ++ delivered c trace else q)) queues.
Proof.
  induction trace as [|[cid fr] r IH]; intros queues.
  - cbn. rewrite <- (map_id queues) at 1. apply map_ext. intros [c q].
    destruct (zmem c subs); [rewrite app_nil_r|]; reflexivity.
  - cbn [notify_all]. rewrite IH, map_map. apply map_ext. intros [c q].
    unfold delivered. cbn [filter fst]. rewrite (Z.eqb_sym cid c).
    destruct (zmem c subs) eqn:Es; destruct (c =? cid) eqn:Ec; cbn [andb map snd]; rewrite ?Es; auto.
    rewrite <- app_assoc. reflexivity.
Qed.

Lemma channel_isolation subs queues trace c q : In (c, q) queues -> zmem c subs = true ->
  In (c, q ++ delivered c trace) (notify_all subs queues trace).
Proof.
  intros Hin Hs. rewrite notify_all_spec. apply in_map_iff. exists (c, q). rewrite Hs. auto.
Qed.

Lemma other_traffic_invisible subs queues tr1 tr2 :
  (forall c, zmem c subs = true -> delivered c tr1 = delivered c tr2) ->
  notify_all subs queues tr1 = notify_all subs queues tr2.
Proof.
  intros H. rewrite !notify_all_spec. apply map_ext. intros [c q].
  destruct (zmem c subs) eqn:Es; [rewrite (H c Es)|]; reflexivity.
Qed.
