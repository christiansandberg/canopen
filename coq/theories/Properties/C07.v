(* C07 - A disturbed SDO transfer fails loudly and does not poison the next one
   (expedited + segmented transfer; the block-transfer part belongs to C12/C13).
   Statements only: each theorem is [exact] of a lemma of Proofs/{SdoClient_proofs.v, Src_eq_c01.v};
   the examples are concrete instances.
   Model: Model/SdoClient.v run against the medium of Model/RefServer.v: [disturb w k f pre] arms
   ONE disturbance f for the response to the k-th frame the client sends and puts the stale frames
   [pre] into the response queue before the transfer starts ("stale frame before the request").
   Kinds (RefServer.fault): FLost (response lost), FLostReq (request lost), FDelay (response arrives
   after the client's time-out abort), FReplace frs (response replaced, e.g. by an abort frame),
   FXor0 16 (toggle bit flipped), FXor0 m (command specifier changed), FMux m (multiplexer changed),
   FDup (response duplicated), FStale fr (stale frame between request and response).
   [sdo_error r]: r is SdoCommunicationError or SdoAbortedError. *)
From Coq Require Import ZArith List Bool Lia.
From CV Require Import Base.Val Base.Bytes Base.Tys Gen.Tables Model.RefServer Model.SdoClient Proofs.SdoClient_proofs Gen.SrcC01 Proofs.Src_eq_c01.
Import ListNotations.
Open Scope Z_scope.

(* Download: for EVERY step k and EVERY disturbance made of 8-byte frames (arbitrary replacement or
   stale frames included), whatever stale frames were in the queue: success implies that the server
   holds exactly the payload; every other outcome is an SDO communication / abort error. *)
Theorem C07_disturbed_download : forall (w : cworld) idx sub data size force sched k f pre,
  net_wf (w_s w) -> fault_wf f ->
  mux_ok idx sub -> zlen data < 2 ^ 32 -> (size = None \/ size = Some (zlen data)) ->
  valid_sched (expedited size force) sched (zlen data) ->
  let '(w', r) := with_write net_step (disturb w k f pre) idx sub size force data sched in
  (r = Ok tt /\ store_get idx sub (n_srv (w_s w')) = Some data) \/ sdo_error r.
Proof. exact disturbed_download. Qed.

(* The same download through io.BufferedWriter / TextIOWrapper ([replay_write]: the wrapper's raw calls
   are replayed as recorded, the bytes of a failed flush are offered again at the next flush / at
   close; the exception that reaches the caller is the last one raised).  Success means that no raw
   call failed, so the raw calls were the writes [sched] followed by close() (-1): then the server
   holds exactly the payload.  Any failed raw call makes the outcome an exception by construction of
   [replay_ops]; its class is checked by the correspondence run only (CPython's buffer is not modelled). *)
Theorem C07_disturbed_buffered_download : forall (w : cworld) idx sub data size force sched k f pre,
  net_wf (w_s w) -> fault_wf f ->
  mux_ok idx sub -> zlen data < 2 ^ 32 -> (size = None \/ size = Some (zlen data)) ->
  valid_sched (expedited size force) sched (zlen data) ->
  let '(w', r) := replay_write net_step (disturb w k f pre) idx sub size force data (sched ++ [-1]) in
  r = Ok tt -> store_get idx sub (n_srv (w_s w')) = Some data.
Proof. exact disturbed_buffered_download. Qed.

(* A refused or unanswered download initiation ends the transfer (fix 0d5f4b1): when the initiate exchange
   ends with an SDO error (abort received, time-out - after which request_response has sent its one abort
   frame -, unexpected response), the world after the whole with-block INCLUDING close() of the discarded
   stream object is the world right after that exchange: no further frame is put on the bus (w_log is
   part of the world), whatever the caller or the buffered wrapper tries afterwards. *)
Theorem C07_failed_initiation_silent : forall (w : cworld) idx sub size force data sched w0 st0 r0,
  ws_init net_step w idx sub size force = (w0, st0, r0) -> sdo_error r0 ->
  with_write net_step w idx sub size force data sched = (w0, r0) /\
  forall ops, replay_write net_step w idx sub size force data ops = (w0, r0).
Proof. exact (@failed_initiation_silent net net_step). Qed.

(* Upload (SdoClient.upload): for every step k and every disturbance the SDO protocol can tell from
   the genuine response or that leaves it intact ([ul_fault_ok]: lost, request lost, late, abort
   frame, toggle flipped, specifier changed, multiplexer of the initiate response changed,
   duplicated, stale frame with another specifier / multiplexer / toggle bit): the result is exactly
   the correct data or an SDO error - never success with other data.
   Excluded, as stated in the design: a stale upload-segment response carrying the expected toggle
   bit, or a stale initiate response for the same multiplexer with other content, is
   indistinguishable from a genuine response within CiA 301. *)
Theorem C07_disturbed_upload : forall (w : cworld) idx sub odt v k f pre,
  net_wf (w_s w) -> fault_wf f -> ul_fault_ok idx sub (Some (k, f)) ->
  mux_ok idx sub -> store_get idx sub (n_srv (w_s w)) = Some v -> zlen v < 2 ^ 32 ->
  (length (st_segs (s_style (n_srv (w_s w)))) < FUEL)%nat -> (length v + 2 <= FUEL)%nat ->
  let '(w', r) := sdo_upload net_step FUEL (disturb w k f pre) idx sub odt in
  r = Ok (expected_upload (s_style (n_srv (w_s w))) odt v) \/ sdo_error r.
Proof. exact disturbed_upload. Qed.

(* the same for open(..., buffering=0).read() *)
Theorem C07_disturbed_raw_read : forall (w : cworld) idx sub v k f pre,
  net_wf (w_s w) -> fault_wf f -> ul_fault_ok idx sub (Some (k, f)) ->
  mux_ok idx sub -> store_get idx sub (n_srv (w_s w)) = Some v -> zlen v < 2 ^ 32 ->
  (length (st_segs (s_style (n_srv (w_s w)))) < FUEL)%nat -> (length v + 2 <= FUEL)%nat ->
  let '(w', _, r) := read_whole net_step FUEL (disturb w k f pre) idx sub in
  r = Ok (wire_value (s_style (n_srv (w_s w))) v) \/ sdo_error r.
Proof. exact disturbed_raw_read. Qed.

(* The mechanism, at every protocol step of every transfer (each step is one request_response call):
   no frame in the queue before the time-out -> SdoCommunicationError, and the very next frame the
   client puts on the bus is the abort with code 0x05040000 ([timeout_abort_frame]). *)
Theorem C07_lost_response_aborts_step : forall (w : cworld) req n1,
  net_step (w_s w) req = (n1, []) ->
  exists w' late, request_response net_step w req = (w', Err E_SDOCOMM) /\
    w_log w' = late ++ timeout_abort_frame :: (0 :: req) :: w_log w.
Proof. exact lost_response_aborts_step. Qed.

(* Transfer level, every step k: after the transfer either the disturbance is still pending (the
   transfer had fewer than k+1 frames) or the time-out abort is on the bus. *)
Theorem C07_lost_response_aborts_download : forall (w : cworld) idx sub data size force sched k f pre,
  lost_like f ->
  lost_seen f (fst (with_write net_step (disturb w k f pre) idx sub size force data sched)).
Proof. exact lost_response_aborts_download. Qed.

Theorem C07_lost_response_aborts_upload : forall (w : cworld) idx sub odt k f pre,
  lost_like f ->
  lost_seen f (fst (sdo_upload net_step FUEL (disturb w k f pre) idx sub odt)).
Proof. exact lost_response_aborts_upload. Qed.

(* The next transfer is clean: from the state client and server are in after ANY disturbed transfer
   (whatever it left in the response queue, plus frames [late] that arrive afterwards, whatever
   transfer the server still has open), an undisturbed transfer satisfies C01's conclusions. *)
Theorem C07_next_transfer_clean_download : forall (w : cworld) k f pre late idx1 sub1 data1 size1 force1 sched1
    idx sub data size force sched,
  net_wf (w_s w) -> fault_wf f ->
  mux_ok idx sub -> zlen data < 2 ^ 32 -> (size = None \/ size = Some (zlen data)) ->
  valid_sched (expedited size force) sched (zlen data) ->
  let w1 := settle (fst (with_write net_step (disturb w k f pre) idx1 sub1 size1 force1 data1 sched1)) late in
  exists w', with_write net_step w1 idx sub size force data sched = (w', Ok tt) /\
    store_get idx sub (n_srv (w_s w')) = Some data /\ s_viol (n_srv (w_s w')) = s_viol (n_srv (w_s w1)).
Proof. exact next_download_clean_after_download. Qed.

Theorem C07_next_transfer_clean_upload : forall (w : cworld) k f pre late idx1 sub1 odt1 idx sub odt v,
  net_wf (w_s w) -> fault_wf f -> mux_ok idx sub ->
  let w1 := settle (fst (sdo_upload net_step FUEL (disturb w k f pre) idx1 sub1 odt1)) late in
  store_get idx sub (n_srv (w_s w1)) = Some v -> zlen v < 2 ^ 32 ->
  (length (st_segs (s_style (n_srv (w_s w1)))) < FUEL)%nat -> (length v + 2 <= FUEL)%nat ->
  exists w', sdo_upload net_step FUEL w1 idx sub odt = (w', Ok (expected_upload (s_style (n_srv (w_s w1))) odt v)) /\
    s_viol (n_srv (w_s w')) = s_viol (n_srv (w_s w1)).
Proof. exact next_upload_clean_after_upload. Qed.

(* the general form behind both: ANY well-formed state with no disturbance pending *)
Theorem C07_next_transfer_clean_any : forall (w : cworld) idx sub data size force sched,
  net_wf (w_s w) -> n_fault (w_s w) = None ->
  mux_ok idx sub -> zlen data < 2 ^ 32 -> (size = None \/ size = Some (zlen data)) ->
  valid_sched (expedited size force) sched (zlen data) ->
  exists w', with_write net_step w idx sub size force data sched = (w', Ok tt) /\
    store_get idx sub (n_srv (w_s w')) = Some data /\ s_viol (n_srv (w_s w')) = s_viol (n_srv (w_s w)).
Proof. exact next_transfer_clean_download. Qed.

(* a stale segment acknowledgement between request and response of the second segment of a 10-byte
   download; a flipped toggle bit in the first segment of a 9-byte upload; a lost response *)
Example C07_nv_faults :
  fault_wf (FStale [32; 0; 0; 0; 0; 0; 0; 0]) /\ fault_wf (FXor0 16) /\ lost_like FLost /\
  ul_fault_ok 8192 0 (Some (1%nat, FXor0 16)) /\
  ul_fault_ok 8192 0 (Some (0%nat, FMux [1; 32; 0])) /\
  ul_fault_ok 8192 0 (Some (2%nat, FStale [0; 1; 2; 3; 4; 5; 6; 7])).
Proof.
  split; [reflexivity|]. split; [exact I|]. split; [exact I|].
  split; [vm_compute; repeat split; reflexivity|].
  split.
  - cbn. split; [reflexivity|]. split; [discriminate|].
    repeat (constructor; [lia|]). constructor.
  - cbn. split; [reflexivity|]. right. discriminate.
Qed.

Example C07_nv_outcomes :
  let data := [1; 2; 3; 4; 5; 6; 7; 8; 9; 10] in
  let w := init_world [(8192, [1; 2; 3; 4; 5; 6; 7; 8; 9])] in
  (* stale ack accepted in place of the genuine one: the download still delivers *)
  snd (with_write net_step (disturb w 2 (FStale [32; 0; 0; 0; 0; 0; 0; 0]) []) 8192 1 (Some 10) false data [10; 3]) = Ok tt /\
  (* lost response of the last segment: the time-out error reaches the caller, abort on the bus;
     the same when the wrapper re-offers the bytes at close (raw calls 10, 3, 3, close) *)
  snd (with_write net_step (disturb w 2 FLost []) 8192 1 (Some 10) false data [10; 3]) = Err E_SDOCOMM /\
  snd (replay_write net_step (disturb w 2 FLost []) 8192 1 (Some 10) false data [10; 3; 3; -1]) = Err E_SDOCOMM /\
  snd (with_write net_step (disturb w 0 FLost []) 8192 1 (Some 3) false [1; 2; 3] [3]) = Err E_SDOCOMM /\
  In timeout_abort_frame (w_log (fst (with_write net_step (disturb w 2 FLost []) 8192 1 (Some 10) false data [10; 3]))) /\
  (* toggle flipped in an upload segment: error; duplicated response: correct data *)
  snd (sdo_upload net_step FUEL (disturb w 1 (FXor0 16) []) 8192 0 None) = Err E_SDOCOMM /\
  snd (sdo_upload net_step FUEL (disturb w 1 FDup []) 8192 0 None) = Ok [1; 2; 3; 4; 5; 6; 7; 8; 9] /\
  (* abort frame received *)
  snd (sdo_upload net_step FUEL (disturb w 0 (FReplace [[128; 0; 32; 0; 0; 0; 2; 6]]) []) 8192 0 None) = Abort 100794368.
Proof. vm_compute. repeat split; try reflexivity. auto 20. Qed.

(* Source tie (DESIGN.md 4.3): source text -> model.  Gen/SrcC01.v is regenerated from the text of canopen/sdo/client.py on every run
   (tools/tables/src_c01.py): WritableStream.__init__ / write / close and ReadableStream.__init__ / read as state
   skeletons (which branch, byte 0 of the request, payload bytes copied, _toggle / _done / _error / pos / size
   afterwards, which exception).  The *_from_src functions (Proofs/Src_eq_c01.v) are the model functions rebuilt around
   those skeletons: the only decisions left outside the translated text are struct packing, the request/response
   exchange and slicing.  The model the theorems above speak about IS what the current source text says. *)
Theorem C07_src_ws_init : forall (S : Type) (peer : S -> frame -> S * list frame) (w : world) idx sub size force,
  ws_init peer w idx sub size force = ws_init_from_src peer w idx sub size force.
Proof. exact @src_ws_init_eq. Qed.

Theorem C07_src_ws_write : forall (S : Type) (peer : S -> frame -> S * list frame) (w : world) st b,
  ws_write peer w st b = ws_write_from_src peer w st b.
Proof. exact @src_ws_write_eq. Qed.

Theorem C07_src_ws_close : forall (S : Type) (peer : S -> frame -> S * list frame) (w : world) st,
  ws_close peer w st = ws_close_from_src peer w st.
Proof. exact @src_ws_close_eq. Qed.

Theorem C07_src_rs_init : forall (S : Type) (peer : S -> frame -> S * list frame) (w : world) idx sub,
  rs_init peer w idx sub = rs_init_from_src peer w idx sub.
Proof. exact @src_rs_init_eq. Qed.

Theorem C07_src_rs_read : forall (S : Type) (peer : S -> frame -> S * list frame) (f : nat) (w : world) st size,
  0 <= size ->
  rs_read peer (Datatypes.S f) w st = rs_read_from_src peer (rs_read peer f) w st size.
Proof. exact @src_rs_read_eq. Qed.

(* readinto(b) with a buffer of cap bytes: read(7) only when nothing is pending, min(cap, pending) bytes handed out,
   the rest kept *)
Theorem C07_src_rs_readinto : forall (S : Type) (peer : S -> frame -> S * list (frame)) rf cap (w : world) st,
  0 <= cap -> rs_readinto peer rf cap w st = rs_readinto_from_src peer rf cap w st.
Proof. exact @src_rs_readinto_eq. Qed.

(* the exchange itself: which frame is awaited, when the queue is replaced, that ONE request is sent, and that a missing
   response is answered by the abort frame [0x80, 0, 0, 0, code little-endian] with the code in the source text (0x05040000)
   after MAX_RETRIES (regenerated: SDO_MAX_RETRIES) attempts *)
Theorem C07_src_request_response : forall (S : Type) (peer : S -> frame -> S * list (frame)) (w : world) req,
  request_response peer w req = request_response_from_src peer w req.
Proof. exact @src_request_response_eq. Qed.

Theorem C07_src_read_response : forall (S : Type) (w : @world S), read_response w = read_response_from_src w.
Proof. exact @src_read_response_eq. Qed.

Theorem C07_src_abort_frame : forall code, abort_frame code = abort_frame_from_src code.
Proof. exact src_abort_eq. Qed.

Theorem C07_src_upload_truncation : forall odt response_size data,
  truncate odt response_size data = truncate_from_src odt response_size data.
Proof. exact src_upload_eq. Qed.

(* non-vacuity of the tie: the skeletons on concrete states.  A 10-byte download of declared size: initiate byte 0x21;
   second segment (3 bytes at pos 7, toggle 0x10) has byte 0 = 0x10 | (7-3)<<1 | 1 = 0x19 and completes the stream;
   close() of an unfinished stream of unknown size sends 0x0F | toggle; an expedited upload response 0x4B (e, s, n=2)
   gives size 2; a final 2-byte upload segment 0x1B with toggle 0x10. *)
Example C07_nv_src :
  src_ws_init true 10 false false 96 = (1, 33, true, false, false, false, 0, 0) /\
  src_ws_init true 3 false false 96 = (1, 39, false, true, false, false, 0, 0) /\
  src_ws_write false false false true 10 7 16 3 false 48 0 0 false = (1, 25, 3, 0, true, false, 10, 3) /\
  src_ws_write false false false true 10 7 16 3 true 0 0 0 false = (6, 25, 3, 16, true, true, 7, 0) /\
  src_ws_close false false 16 false 0 = (true, 31, true) /\
  src_rs_init 8192 1 75 8192 1 4 0 false 0 0 = (1, true, 2, 1, 2, 0, false) /\
  src_rs_read false false 7 false false 16 7 27 0 0 = (7, 112, 0, true, 9, 2).
Proof. vm_compute. repeat split; reflexivity. Qed.

(* a lost response with an empty queue: one request sent, then the abort 0x05040000; a stale frame in the queue is
   dropped first; an abort frame from the server (0x80) raises SdoAbortedError *)
Example C07_nv_src_exchange :
  src_request_response SDO_MAX_RETRIES true true false 0 0 = (2, false, 1, 84148224, 0) /\
  src_request_response SDO_MAX_RETRIES false false false 0 0 = (1, true, 1, 0, 1) /\
  src_read_response false 128 = 1 /\ src_read_response false 96 = 2 /\ src_read_response true 0 = 0 /\
  abort_frame_from_src 84148224 = [128; 0; 0; 0; 0; 0; 4; 5].
Proof. vm_compute. repeat split; reflexivity. Qed.

Print Assumptions C07_disturbed_download.
Print Assumptions C07_disturbed_buffered_download.
Print Assumptions C07_failed_initiation_silent.
Print Assumptions C07_disturbed_upload.
Print Assumptions C07_disturbed_raw_read.
Print Assumptions C07_lost_response_aborts_step.
Print Assumptions C07_lost_response_aborts_download.
Print Assumptions C07_lost_response_aborts_upload.
Print Assumptions C07_next_transfer_clean_download.
Print Assumptions C07_next_transfer_clean_upload.
Print Assumptions C07_next_transfer_clean_any.
Print Assumptions C07_src_ws_init.
Print Assumptions C07_src_ws_write.
Print Assumptions C07_src_ws_close.
Print Assumptions C07_src_rs_init.
Print Assumptions C07_src_rs_read.
Print Assumptions C07_src_upload_truncation.
Print Assumptions C07_src_request_response.
Print Assumptions C07_src_read_response.
Print Assumptions C07_src_abort_frame.
Print Assumptions C07_src_rs_readinto.
