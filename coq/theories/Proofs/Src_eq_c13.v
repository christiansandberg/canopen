(* Source tie (DESIGN.md 4.3) for C13: BlockUploadStream.read / _ack_block / _end_upload / readinto / close as translated
   from the CURRENT source text (Gen/SrcC13.v, state skeletons) determine the model functions of Model/BlockUl.v: the
   sequence check and when _retransmit is called, when the sub-block is acknowledged and with which numbers, the c bit,
   the trimming bound 8 - n, when the CRC is fed and compared (abort 0x05040004), the size check (abort 0x06070010),
   _done / pos / _error. *)
From Coq Require Import ZArith List Bool Lia.
From CV Require Import Base.Val Base.Bytes Gen.SdoTables Gen.SrcC13 Model.Crc Model.RefBlockServer Model.BlockDl Model.BlockUl.
Import ListNotations.
Open Scope Z_scope.

Definition usome (o : option Z) : bool := match o with Some _ => true | None => false end.
Definition uget (o : option Z) : Z := match o with Some x => x | None => 0 end.

(* the skeleton of read(n), n >= 0, no _pending left over, on the stream state u *)
Definition SK (u : ul) (timed_out : bool) (cmd_d cmd_r ack_r n : Z) (cm : bool) (dl : Z) :=
  src_ul_read false false 7 (u_done u) timed_out cmd_d cmd_r ack_r (u_ackseq u) (u_blksize u) n (u_crcsup u) cm dl (u_pos u)
              (usome (u_size u)) (uget (u_size u)) (u_error u) 0 0 false 0 0 false 0.

Section Eq.
  Context {S : Type} (srv : S -> frame -> S * list frame).
  Notation net := (@net S).

  Theorem src_ul_ack_block_eq u (w : net) :
    ack_block srv u w =
    let '(b0, b1, b2, sent, a') := src_ul_ack_block (u_ackseq u) (u_blksize u) 0 0 0 false in
    (set_ackseq u a', if sent then send_request srv w [b0; b1; b2; 0; 0; 0; 0; 0] else w).
  Proof. reflexivity. Qed.

  Theorem src_ul_end_upload_eq u (w : net) :
    end_upload srv u w =
    match read_response w with
    | (Err k, w1) => (Err k, u, w1)
    | (Abort a, w1) => (Abort a, u, w1)
    | (Ok r, w1) =>
        let u1 := mkul (u_done u) (u_pos u) (u_crc u) (Some (fb r 1 + 256 * fb r 2)) (u_ackseq u)
                       (u_error u) (u_size u) (u_crcsup u) (u_blksize u) in
        let '(ok, v) := src_ul_end_upload (fb r 0) 0 in
        if ok =? 1 then (Ok v, u1, w1) else (Err E_SDOCOMM, set_error u1, client_abort srv w1 v)
    end.
  Proof.
    unfold end_upload, src_ul_end_upload. destruct (read_response w) as [[r|k|a] w1]; try reflexivity.
    destruct (negb (Z.land (fb r 0) 224 =? RESPONSE_BLOCK_UPLOAD)); [reflexivity|].
    destruct (negb (Z.land (fb r 0) 3 =? END_BLOCK_TRANSFER)); reflexivity.
  Qed.

  Theorem src_ul_close_eq u (w : net) :
    ul_close srv u w =
    (let '(b0, sent) := src_ul_close false (u_done u) (u_error u) 0 false in
     if sent then send_request srv w [b0; 0; 0; 0; 0; 0; 0; 0] else w) /\
    forall d e b s, src_ul_close true d e b s = (b, s).        (* an already closed stream sends nothing *)
  Proof.
    split; [|reflexivity]. unfold ul_close, src_ul_close. destruct (u_done u && negb (u_error u)); reflexivity.
  Qed.

  (* readinto(b), len(b) = k: read(7) is called iff nothing is pending *)
  Theorem src_ul_readinto_eq k u pend (w : net) : 0 <= k ->
    match pend with
    | [] =>
        forall d u1 w1, ul_read srv u w = (Ok d, u1, w1) ->
        ul_readinto srv k u [] w = ((Ok (firstn (Z.to_nat k) d), u1, w1), skipn (Z.to_nat k) d) /\
        src_ul_readinto k 0 (zlen d) false = (true, zlen (firstn (Z.to_nat k) d), zlen (skipn (Z.to_nat k) d))
    | _ =>
        ul_readinto srv k u pend w = ((Ok (firstn (Z.to_nat k) pend), u, w), skipn (Z.to_nat k) pend) /\
        forall rlen, src_ul_readinto k (zlen pend) rlen false =
                     (false, zlen (firstn (Z.to_nat k) pend), zlen (skipn (Z.to_nat k) pend))
    end.
  Proof.
    intros Hk. destruct pend as [|p0 pend0].
    - intros d u1 w1 Hr. unfold ul_readinto. rewrite Hr. split; [reflexivity|].
      unfold src_ul_readinto. cbn [Z.eqb negb]. rewrite zlen_firstn, zlen_skipn, Z2Nat.id by assumption. reflexivity.
    - split; [reflexivity|]. intros rlen. unfold src_ul_readinto.
      assert (Hz : (zlen (p0 :: pend0) =? 0) = false) by (unfold zlen; cbn [length]; lia).
      rewrite Hz. cbn [negb]. rewrite zlen_firstn, zlen_skipn, Z2Nat.id by assumption. reflexivity.
  Qed.

  (* what the skeleton of read() returns: code_ (12: _done already, 0: abort, 1: data), then the variables of read()
     and the attributes it assigns, under the names they have in Gen/SrcC13.v *)
  Definition rd_out : Type := (Z * Z * Z * bool * Z * Z * bool * bool * Z * bool * Z)%type.
  Definition rd_code (t : rd_out) : Z := let '(x, _, _, _, _, _, _, _, _, _, _) := t in x.
  Definition rd_nretx (t : rd_out) : Z := let '(_, x, _, _, _, _, _, _, _, _, _) := t in x.
  Definition rd_ackseq (t : rd_out) : Z := let '(_, _, x, _, _, _, _, _, _, _, _) := t in x.
  Definition rd_acked (t : rd_out) : bool := let '(_, _, _, x, _, _, _, _, _, _, _) := t in x.
  Definition rd_rc (t : rd_out) : Z := let '(_, _, _, _, x, _, _, _, _, _, _) := t in x.
  Definition rd_hi (t : rd_out) : Z := let '(_, _, _, _, _, x, _, _, _, _, _) := t in x.
  Definition rd_done (t : rd_out) : bool := let '(_, _, _, _, _, _, x, _, _, _, _) := t in x.
  Definition rd_crcp (t : rd_out) : bool := let '(_, _, _, _, _, _, _, x, _, _, _) := t in x.
  Definition rd_pos (t : rd_out) : Z := let '(_, _, _, _, _, _, _, _, x, _, _) := t in x.
  Definition rd_err (t : rd_out) : bool := let '(_, _, _, _, _, _, _, _, _, x, _) := t in x.
  Definition rd_abort (t : rd_out) : Z := let '(_, _, _, _, _, _, _, _, _, _, x) := t in x.

  (* the statements of read() that follow once the segment is chosen, in closed form.
     a = _ackseq (accounting for the segment), c = its command byte, n = unused bytes announced by the end frame,
     cm = "announced CRC = CRC of the data", dl = len(data) *)
  Definition rd_tail (a blk c n : Z) (crcsup cm : bool) (dl pos : Z) (szh : bool) (sz : Z) (err : bool) (nretx : Z) : rd_out :=
    let last := negb (Z.land c NO_MORE_BLOCKS =? 0) in
    let crcfail := crcsup && last && negb cm in
    let sizefail := negb crcfail && last && szh && negb (pos + dl =? sz) in
    (if crcfail || sizefail then 0 else 1, nretx, a, (a >=? blk) || last, c, if last then 8 - n else 8, last, crcsup,
     if crcfail then pos else pos + dl, crcfail || sizefail || err,
     if crcfail then 84148228 else if sizefail then 101122064 else 0).

  Lemma rd_tail_code a blk c n cs cm dl pos szh sz err k : (rd_code (rd_tail a blk c n cs cm dl pos szh sz err k) =? 12) = false.
  Proof. unfold rd_tail, rd_code. destruct (_ || _); reflexivity. Qed.

  (* after a time-out: _retransmit() has returned the segment c and _ackseq = a; k retransmissions counted before *)
  Lemma src_ul_read_timeout cd c a a0 blk n cs cm dl pos szh sz err k :
    src_ul_read false false 7 false true cd c a a0 blk n cs cm dl pos szh sz err 0 k false 0 0 false 0 =
    rd_tail a blk c n cs cm dl pos szh sz err (k + 1).
  Proof.
    unfold src_ul_read, rd_tail. cbn [orb Z.ltb Z.compare]. cbv beta iota zeta.
    destruct (Z.land c NO_MORE_BLOCKS =? 0); cbn [negb].
    - rewrite !orb_false_r. destruct (a >=? blk), cs; reflexivity.
    - (* the last segment: the tests in the order the source makes them, CRC then size *)
      rewrite !orb_true_r. cbv iota. destruct cs; cbn [andb]; [destruct cm; [|reflexivity]|];
        (destruct szh; [|reflexivity]); destruct (pos + dl =? sz); reflexivity.
  Qed.

  Lemma src_ul_read_live cd cr ar a blk n cs cm dl pos szh sz err :
    src_ul_read false false 7 false false cd cr ar a blk n cs cm dl pos szh sz err 0 0 false 0 0 false 0 =
    if Z.land cd 127 =? a + 1 then rd_tail (Z.land cd 127) blk cd n cs cm dl pos szh sz err 0
    else rd_tail ar blk cr n cs cm dl pos szh sz err 1.
  Proof.
    (* The translation repeats the statements that follow the choice of the segment in either branch of the sequence
       check.  Both copies are the time-out branch over again: for the received segment with one retransmission
       less on the count, and for the retransmitted one. *)
    transitivity (if Z.land cd 127 =? a + 1
      then src_ul_read false false 7 false true 0 cd (Z.land cd 127) a blk n cs cm dl pos szh sz err 0 (-1) false 0 0 false 0
      else src_ul_read false false 7 false true 0 cr ar a blk n cs cm dl pos szh sz err 0 0 false 0 0 false 0).
    - unfold src_ul_read at 1. cbn [orb Z.ltb Z.compare]. destruct (Z.land cd 127 =? a + 1); reflexivity.
    - rewrite !src_ul_read_timeout. reflexivity.
  Qed.

  Lemma SK_timeout u cd c a n cm dl : u_done u = false ->
    SK u true cd c a n cm dl =
    rd_tail a (u_blksize u) c n (u_crcsup u) cm dl (u_pos u) (usome (u_size u)) (uget (u_size u)) (u_error u) 1.
  Proof. intros Hd. unfold SK. rewrite Hd. apply src_ul_read_timeout. Qed.

  Lemma SK_direct u cd cr ar n cm dl : u_done u = false ->
    SK u false cd cr ar n cm dl =
    if Z.land cd 127 =? u_ackseq u + 1
    then rd_tail (Z.land cd 127) (u_blksize u) cd n (u_crcsup u) cm dl (u_pos u) (usome (u_size u)) (uget (u_size u)) (u_error u) 0
    else rd_tail ar (u_blksize u) cr n (u_crcsup u) cm dl (u_pos u) (usome (u_size u)) (uget (u_size u)) (u_error u) 1.
  Proof. intros Hd. unfold SK. rewrite Hd. apply src_ul_read_live. Qed.

  Ltac rd_proj :=
    cbv beta iota zeta delta [rd_tail rd_code rd_nretx rd_ackseq rd_acked rd_rc rd_hi rd_done rd_crcp rd_pos rd_err rd_abort].

  (* read(): everything after the segment has been obtained (resp, command byte fb resp 0; _ackseq already accounts for
     it).  The skeleton is entered through its time-out branch with _retransmit() returning resp. *)
  Theorem src_ul_read_tail_eq u (w : net) resp : u_done u = false ->
    read_tail srv u w resp =
    let sk := SK u true 0 (fb resp 0) (u_ackseq u) in
    let t0 := sk 0 true 0 in
    let '(u1, w1) := if rd_acked t0 then ack_block srv u w else (u, w) in
    let fin n (u2 : ul) (w2 : net) : RU (list Z) :=
      let data := skipn 1 (firstn (Z.to_nat (rd_hi (sk n true 0))) resp) in
      let crc' := if u_crcsup u then crc_from (u_crc u) data else u_crc u in
      let cm := match u_scrc u2 with Some sc => sc =? crc' | None => false end in
      let t := sk n cm (zlen data) in
      let u3 := mkul (rd_done t) (rd_pos t) (if rd_crcp t then crc_from (u_crc u) data else u_crc u) (u_scrc u2)
                     (u_ackseq u2) (rd_err t) (u_size u) (u_crcsup u) (u_blksize u) in
      if rd_code t =? 0 then (Err E_SDOCOMM, u3, client_abort srv w2 (rd_abort t)) else (Ok data, u3, w2) in
    if negb (Z.land (rd_rc t0) NO_MORE_BLOCKS =? 0) then
      match end_upload srv u1 w1 with
      | (Ok n, u2, w2) => fin n u2 w2
      | (Err k, u2, w2) => (Err k, u2, w2)
      | (Abort a, u2, w2) => (Abort a, u2, w2)
      end
    else fin 0 u1 w1.
  Proof.
    intros Hd. cbv zeta. unfold read_tail.
    rewrite !(SK_timeout u 0 (fb resp 0) (u_ackseq u) 0 true 0 Hd).
    unfold rd_tail at 1 2. cbn [rd_acked rd_rc]. rewrite Z.geb_leb.
    destruct (Z.land (fb resp 0) NO_MORE_BLOCKS =? 0) eqn:El; cbn [negb orb andb].
    - rewrite orb_false_r. unfold ack_block.
      destruct (u_blksize u <=? u_ackseq u); cbv iota beta;
        cbn [set_ackseq u_crcsup u_crc u_scrc u_pos u_size u_error u_ackseq u_blksize u_done];
        rewrite !SK_timeout by assumption; rd_proj; rewrite El; cbn [negb andb orb Z.eqb];
        rewrite !andb_false_r; reflexivity.
    - rewrite orb_true_r. unfold end_upload, ack_block. cbv iota beta.
      destruct (read_response (send_request srv w (ul_ack_request u))) as [[r|k|a] w1]; try reflexivity.
      cbn [set_ackseq u_done u_pos u_crc u_scrc u_ackseq u_error u_size u_crcsup u_blksize].
      destruct (negb (Z.land (fb r 0) 224 =? RESPONSE_BLOCK_UPLOAD)); [reflexivity|].
      destruct (negb (Z.land (fb r 0) 3 =? END_BLOCK_TRANSFER)); [reflexivity|].
      cbn [set_ackseq u_done u_pos u_crc u_scrc u_ackseq u_error u_size u_crcsup u_blksize].
      rewrite !SK_timeout by assumption. rd_proj. rewrite El. cbn [negb andb orb].
      set (n := Z.land (Z.shiftr (fb r 0) 2) 7).
      set (data := skipn 1 (firstn (Z.to_nat (8 - n)) resp)).
      destruct (u_crcsup u); [destruct (fb r 1 + 256 * fb r 2 =? crc_from (u_crc u) data); [|reflexivity]|];
        (destruct (u_size u) as [s|]; [|reflexivity]); cbn [usome uget andb];
        destruct (u_pos u + zlen data =? s); reflexivity.
  Qed.

  (* read(): how the segment is obtained - the sequence check and the two ways into _retransmit() *)
  Theorem src_ul_read_dispatch_eq u (w : net) :
    ul_read srv u w =
    if rd_code (SK u false 0 0 0 0 true 0) =? 12 then (Ok [], u, w)        (* _done: b"" *)
    else
      let via_retransmit w1 :=
        match ul_retransmit srv u w1 with
        | (Ok response', u2, w2) => read_tail srv u2 w2 response'
        | (Err k, u2, w2) => (Err k, u2, w2)
        | (Abort a, u2, w2) => (Abort a, u2, w2)
        end in
      match read_response w with
      | (Abort a, w1) => (Abort a, u, w1)
      | (Err _, w1) => via_retransmit w1                                   (* timed_out: skeleton's except branch *)
      | (Ok response, w1) =>
          let t := SK u false (fb response 0) 0 0 0 true 0 in
          if rd_nretx t =? 0 then read_tail srv (set_ackseq u (rd_ackseq t)) w1 response else via_retransmit w1
      end.
  Proof.
    unfold ul_read. destruct (u_done u) eqn:Hd.
    - unfold SK. rewrite Hd. reflexivity.
    - assert (H12 : (rd_code (SK u false 0 0 0 0 true 0) =? 12) = false)
        by (rewrite SK_direct by assumption; destruct (Z.land 0 127 =? u_ackseq u + 1); apply rd_tail_code).
      rewrite H12. cbv zeta.
      destruct (read_response w) as [[resp|k|a] w1]; try reflexivity.
      rewrite SK_direct by assumption.
      destruct (Z.land (fb resp 0) 127 =? u_ackseq u + 1); reflexivity.
  Qed.
End Eq.
