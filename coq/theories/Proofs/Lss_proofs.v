(* C18: the LSS master (Model/Lss.v), against any peer and against the reference slave (Model/RefLssSlave.v).
   Any peer: __send_command in closed form (send_command_eq: the queue is flushed, one request goes out, the first
   frame on the slave's COB-ID is the answer); the frames each service sends and how it reads the answer follow
   from that by unfolding the service.
   Reference slave: the fast scan is followed bit by bit under the invariant that the id agrees with the slave's
   above the bit being tried (hi, scan_bits_ok); the other services are run to the slave's reply. *)
From Coq Require Import ZArith List Bool Lia.
From CV Require Import Base.Val Base.Bytes Base.Tys Gen.LssTables Model.RefLssSlave Model.Lss.
Import ListNotations.
Open Scope Z_scope.

Definition u32 (x : Z) : Prop := 0 <= x < 4294967296.
Definition u16 (x : Z) : Prop := 0 <= x < 65536.
Definition u8 (x : Z) : Prop := 0 <= x < 256.

(* for closed constants: [u8_dec c eq_refl] *)
Lemma u8_dec x : byte_okb x = true -> u8 x.
Proof. unfold u8, byte_okb. lia. Qed.

Lemma byte_arg_ok v : u8 v -> byte_arg v = Ok v.
Proof. unfold u8, byte_arg. intros H. now replace (_ && _) with true by lia. Qed.

Lemma pack_u32_ok v : u32 v -> pack_u32 v = Ok (le_encode 4 v).
Proof. unfold u32, pack_u32. intros H. now replace (_ && _) with true by lia. Qed.

Lemma pack_u16_ok v : u16 v -> pack_u16 v = Ok (le_encode 2 v).
Proof. unfold u16, pack_u16. intros H. now replace (_ && _) with true by lia. Qed.

Lemma pack_fast_scan_ok idn bc sub nxt : u32 idn -> u8 bc -> u8 sub -> u8 nxt ->
  pack_fast_scan CS_FAST_SCAN idn bc sub nxt = Ok (CS_FAST_SCAN :: le_encode 4 idn ++ [bc; sub; nxt]).
Proof.
  unfold u32, u8, pack_fast_scan. intros. change (0 <=? CS_FAST_SCAN) with true. change (CS_FAST_SCAN <? 256) with true.
  now replace (_ && _) with true by lia.
Qed.

Lemma le_at1 n c x rest : 0 <= x < 2 ^ (8 * Z.of_nat n) ->
  le_decode (firstn n (skipn 1 (c :: le_encode n x ++ rest))) = x.
Proof.
  intros H. cbn [skipn]. rewrite firstn_app_exact by apply le_encode_length. now apply le_decode_encode_small.
Qed.

Lemma u32_at1 c x rest : u32 x -> u32_at 1 (c :: le_encode 4 x ++ rest) = x.
Proof. exact (le_at1 4 c x rest). Qed.

Lemma u16_at1 c x rest : u16 x -> u16_at 1 (c :: le_encode 2 x ++ rest) = x.
Proof. exact (le_at1 2 c x rest). Qed.

Definition rxq (rs : list (Z * list Z)) : list (list Z) :=
  map snd (filter (fun m => fst m =? LSS_RX_COBID) rs).

Definition rx_log (rs : list (Z * list Z)) : list busmsg := map (fun m => Rx (fst m) (snd m)) rs.

(* what the library puts on the bus *)
Definition sent (b : list busmsg) : list (Z * list Z) :=
  flat_map (fun m => match m with Tx c d => [(c, d)] | Rx _ _ => [] end) b.

Lemma sent_request b c msg rs : sent (b ++ Tx c msg :: rx_log rs) = sent b ++ [(c, msg)].
Proof.
  unfold sent. rewrite flat_map_app. cbn [flat_map app]. f_equal. f_equal.
  induction rs as [|m rs IH]; [reflexivity|exact IH].
Qed.

Section Command.
  Context {P : Type} (peer : P -> Z -> list Z -> P * list (Z * list Z)).
  Notation M := (mstate P).

  Lemma fold_notify rs : forall q, fold_left notify rs q = q ++ rxq rs.
  Proof.
    induction rs as [|m rs IH]; intros q; cbn [fold_left].
    - unfold rxq. cbn. now rewrite app_nil_r.
    - rewrite IH. unfold notify, rxq. cbn [filter]. destruct (fst m =? LSS_RX_COBID); cbn [map].
      + now rewrite <- app_assoc.
      + reflexivity.
  Qed.

  (* the queue is flushed before the request goes out; the answer is the first frame the peer sends on the
     slave's COB-ID in reaction to this request *)
  Lemma send_command_eq (st : M) msg :
    send_command peer st msg =
    let pr := peer (pst st) LSS_TX_COBID msg in
    let b' := bus st ++ Tx LSS_TX_COBID msg :: rx_log (snd pr) in
    if negb (zmem (nth 0 msg 0) ListMessageNeedResponse) then (mkM (rxq (snd pr)) (fst pr) b', Ok None)
    else match rxq (snd pr) with
         | [] => (mkM [] (fst pr) b', Err E_LSS)
         | r :: q => (mkM q (fst pr) b', Ok (Some r))
         end.
  Proof.
    unfold send_command, send_message.
    replace (match responses st with [] => st | _ :: _ => mkM [] (pst st) (bus st) end) with (mkM [] (pst st) (bus st))
      by (destruct st as [[|r q] p b]; reflexivity).
    cbn [responses pst bus]. destruct (peer (pst st) LSS_TX_COBID msg) as [p' rs]. cbn [fst snd].
    rewrite fold_notify. cbn [app responses pst bus]. fold (rx_log rs).
    destruct (negb _); [reflexivity|]. now destruct (rxq rs).
  Qed.

  Lemma send_command_sent (st : M) msg :
    sent (bus (fst (send_command peer st msg))) = sent (bus st) ++ [(LSS_TX_COBID, msg)].
  Proof.
    rewrite send_command_eq. cbv zeta.
    destruct (negb _); [|destruct (rxq _)]; apply sent_request.
  Qed.

  (* one request, then a decoding of the answer that leaves the state alone *)
  Lemma request_sent {B} (st : M) msg (k : M -> option (list Z) -> M * res B) :
    (forall st a, fst (k st a) = st) ->
    sent (bus (fst (sbind (send_command peer st msg) k))) = sent (bus st) ++ [(LSS_TX_COBID, msg)].
  Proof.
    intros H. rewrite <- send_command_sent.
    destruct (send_command peer st msg) as [st1 [a|e|c]]; cbn [sbind fst]; [now rewrite H|reflexivity..].
  Qed.

  Lemma send_lss_address_eq (st : M) cs v : byte_okb cs = true -> u32 v ->
    send_lss_address peer st cs v = send_command peer st (cs :: le_encode 4 v ++ [0; 0; 0]).
  Proof. intros Hc Hv. unfold send_lss_address, byte_arg. fold (byte_okb cs). now rewrite Hc, pack_u32_ok. Qed.

  (* a request that is not in ListMessageNeedResponse returns at once *)
  Lemma sla_unawaited {B} (st : M) cs v (k : M -> option (list Z) -> M * res B) :
    byte_okb cs = true -> u32 v -> zmem cs ListMessageNeedResponse = false ->
    sbind (send_lss_address peer st cs v) k = k (fst (send_command peer st (cs :: le_encode 4 v ++ [0; 0; 0]))) None.
  Proof.
    intros Hc Hv H. rewrite send_lss_address_eq, send_command_eq by assumption. cbv zeta. cbn [nth]. now rewrite H.
  Qed.

  (* __send_fast_scan_message: silence means no; otherwise yes iff the answer starts with the identify-slave specifier *)
  Lemma sfm_eq (st : M) idn bc sub nxt : u32 idn -> u8 bc -> u8 sub -> u8 nxt ->
    send_fast_scan_message peer st idn bc sub nxt =
    let msg := CS_FAST_SCAN :: le_encode 4 idn ++ [bc; sub; nxt] in
    let pr := peer (pst st) LSS_TX_COBID msg in
    let b' := bus st ++ Tx LSS_TX_COBID msg :: rx_log (snd pr) in
    match rxq (snd pr) with
    | [] => (mkM [] (fst pr) b', Ok false)
    | [] :: q => (mkM q (fst pr) b', Err E_STRUCT)
    | (c :: _) :: q => (mkM q (fst pr) b', Ok (c =? CS_IDENTIFY_SLAVE))
    end.
  Proof.
    intros Hi Hb Hs Hn. unfold send_fast_scan_message. rewrite pack_fast_scan_ok by assumption. cbn [sbind].
    rewrite send_command_eq. cbv zeta. cbn [nth].
    change (negb (zmem CS_FAST_SCAN ListMessageNeedResponse)) with false. cbv iota.
    destruct (rxq _) as [|[|c t] q]; reflexivity.
  Qed.

  Lemma sfm_sent (st : M) idn bc sub nxt : u32 idn -> u8 bc -> u8 sub -> u8 nxt ->
    sent (bus (fst (send_fast_scan_message peer st idn bc sub nxt))) =
    sent (bus st) ++ [(LSS_TX_COBID, CS_FAST_SCAN :: le_encode 4 idn ++ [bc; sub; nxt])].
  Proof.
    intros Hi Hb Hs Hn. rewrite sfm_eq by assumption. cbv zeta.
    destruct (rxq _) as [|[|c t] q]; apply sent_request.
  Qed.
End Command.

(* bits n.. of x, lower bits cleared: the accumulated id after bits 31..n of a part have been decided *)
Definition hi (x n : Z) : Z := Z.shiftl (Z.shiftr x n) n.

Lemma hi_bits x n i : 0 <= n -> 0 <= i -> Z.testbit (hi x n) i = (n <=? i) && Z.testbit x i.
Proof.
  intros Hn Hi. unfold hi. rewrite Z.shiftl_spec by lia.
  destruct (n <=? i) eqn:E.
  - rewrite Z.shiftr_spec by lia. cbn [andb]. f_equal. lia.
  - rewrite Z.testbit_neg_r by lia. reflexivity.
Qed.

Lemma hi_0 x : hi x 0 = x.
Proof. unfold hi. now rewrite Z.shiftr_0_r, Z.shiftl_0_r. Qed.

Lemma hi_32 x : u32 x -> hi x 32 = 0.
Proof.
  unfold u32, hi. intros H. rewrite Z.shiftr_div_pow2 by lia.
  change (2 ^ 32) with 4294967296. rewrite Z.div_small by lia. apply Z.shiftl_0_l.
Qed.

Lemma hi_u32 x n : 0 <= n -> u32 x -> u32 (hi x n).
Proof.
  unfold u32, hi. intros Hn H. rewrite Z.shiftr_div_pow2, Z.shiftl_mul_pow2 by lia.
  assert (0 < 2 ^ n) by (apply Z.pow_pos_nonneg; lia).
  remember (2 ^ n) as m. rewrite Z.mul_comm.
  pose proof (Z.mul_div_le x m ltac:(lia)). pose proof (Z.div_pos x m ltac:(lia) ltac:(lia)).
  pose proof (Z.mul_nonneg_nonneg m (x / m) ltac:(lia) ltac:(lia)). lia.
Qed.

Lemma fs_mask_bits k i : 0 <= k -> 0 <= i -> Z.testbit (fs_mask k) i = (k <=? i) && (i <? 32).
Proof.
  intros Hk Hi. unfold fs_mask. change 4294967295 with (Z.ones 32).
  rewrite Z.land_spec, Z.shiftl_spec, !Z.testbit_ones by lia. lia.
Qed.

(* the slave's mask compare at bit k, with the bits above k already right and bit k still 0 in the id,
   succeeds exactly when bit k of the slave's number is 0 *)
Lemma mask_test x k : 0 <= k < 32 ->
  (Z.land x (fs_mask k) =? Z.land (hi x (k + 1)) (fs_mask k)) = negb (Z.testbit x k).
Proof.
  intros Hk. destruct (Z.testbit x k) eqn:B; cbn [negb].
  - apply Z.eqb_neq. intros E. apply (f_equal (fun y => Z.testbit y k)) in E.
    rewrite !Z.land_spec, fs_mask_bits, hi_bits, B in E by lia. lia.
  - apply Z.eqb_eq. apply Z.bits_inj'. intros i Hi.
    rewrite !Z.land_spec, fs_mask_bits, hi_bits by lia.
    destruct (Z.eq_dec i k) as [->|Hne]; [rewrite B|destruct (Z.testbit x i)]; lia.
Qed.

Lemma hi_step x k : 0 <= k ->
  hi x k = if negb (Z.testbit x k) then hi x (k + 1) else Z.lor (hi x (k + 1)) (Z.shiftl 1 k).
Proof.
  intros Hk. apply Z.bits_inj'. intros i Hi.
  destruct (Z.testbit x k) eqn:B; cbn [negb].
  - rewrite Z.lor_spec, !hi_bits, Z.shiftl_1_l, Z.pow2_bits_eqb by lia.
    destruct (Z.eq_dec i k) as [->|Hne]; [rewrite B|destruct (Z.testbit x i)]; lia.
  - rewrite !hi_bits by lia.
    destruct (Z.eq_dec i k) as [->|Hne]; [rewrite B|destruct (Z.testbit x i)]; lia.
Qed.

Lemma u32_lor a b : u32 a -> u32 b -> u32 (Z.lor a b).
Proof.
  unfold u32. change 4294967296 with (2 ^ 32). intros Ha Hb.
  rewrite <- (Z.mod_small a (2 ^ 32)), <- (Z.mod_small b (2 ^ 32)), <- !Z.land_ones, <- Z.land_lor_distr_l, Z.land_ones by lia.
  apply Z.mod_pos_bound. lia.
Qed.

Lemma u32_bit k : 0 <= k < 32 -> u32 (Z.shiftl 1 k).
Proof.
  intros Hk. unfold u32. rewrite Z.shiftl_1_l. change 4294967296 with (2 ^ 32). split.
  - apply Z.pow_nonneg. lia.
  - apply Z.pow_lt_mono_r; lia.
Qed.

(* lss_next = (lss_sub + 1) & 3: the next part, and part 0 again after the last, which is what makes the slave
   take the confirm of part 3 as the end of the scan *)
Lemma next_part_range sub : 0 <= sub < 4 -> 0 <= Z.land (sub + 1) 3 < 4.
Proof. intros H. assert (C : sub = 0 \/ sub = 1 \/ sub = 2 \/ sub = 3) by lia. destruct C as [ -> | [ -> | [ -> | -> ] ] ]; cbn; lia. Qed.

Lemma next_part_wraps sub : 0 <= sub < 4 -> (Z.land (sub + 1) 3 <? sub) = (sub =? 3).
Proof. intros H. assert (C : sub = 0 \/ sub = 1 \/ sub = 2 \/ sub = 3) by lia. destruct C as [ -> | [ -> | [ -> | -> ] ] ]; reflexivity. Qed.

Section Scan.
  (* everything about the slave that the scan does not touch *)
  Context (ids : list Z) (sel idn0 bt dl sn sb se : Z).
  Definition SL (mode pos : Z) : slave := mkSlave ids mode NODE_UNCONFIGURED pos sel idn0 bt dl sn sb se.

  Lemma fastscan_waiting pos x bc sub nxt : u32 x ->
    slave_step (SL ST_WAITING pos) LSS_TX_COBID (CS_FAST_SCAN :: le_encode 4 x ++ [bc; sub; nxt]) =
    if bc =? 128 then (SL ST_WAITING 0, reply [STD_IDENTIFY_SLAVE])
    else if (bc <? 32) && (sub <? 4) && (nxt <? 4) && (sub =? pos) &&
            (Z.land (nth (Z.to_nat sub) ids 0) (fs_mask bc) =? Z.land x (fs_mask bc))
    then (SL (if (bc =? 0) && (nxt <? sub) then ST_CONFIGURATION else ST_WAITING) nxt, reply [STD_IDENTIFY_SLAVE])
    else (SL ST_WAITING pos, silent).
  Proof.
    intros Hx. change (slave_step ?s _ ?f) with (slave_fastscan s f).
    unfold slave_fastscan. cbv zeta. rewrite u32_at1 by exact Hx.
    change (byte_at 5 _) with bc. change (byte_at 6 _) with sub. change (byte_at 7 _) with nxt.
    change (part _ sub) with (nth (Z.to_nat sub) ids 0). change (sl_pos _) with pos.
    change ((sl_mode _ =? ST_WAITING) && (sl_node _ =? NODE_UNCONFIGURED)) with true. cbv iota.
    change STD_BITCHECK_RESET with 128. destruct (bc =? 128); [reflexivity|].
    destruct ((bc <? 32) && (sub <? 4) && (nxt <? 4) && (sub =? pos)); [|reflexivity].
    destruct (Z.land _ _ =? Z.land _ _); [|reflexivity].
    now destruct ((bc =? 0) && (nxt <? sub)).
  Qed.

  (* one fast-scan message against the slave in waiting state, any queue content before *)
  Lemma sfm_slave q b pos x bc sub nxt : u32 x -> u8 bc -> u8 sub -> u8 nxt -> exists b',
    send_fast_scan_message slave_step (mkM q (SL ST_WAITING pos) b) x bc sub nxt =
    if bc =? 128 then (mkM [] (SL ST_WAITING 0) b', Ok true)
    else if (bc <? 32) && (sub <? 4) && (nxt <? 4) && (sub =? pos) &&
            (Z.land (nth (Z.to_nat sub) ids 0) (fs_mask bc) =? Z.land x (fs_mask bc))
    then (mkM [] (SL (if (bc =? 0) && (nxt <? sub) then ST_CONFIGURATION else ST_WAITING) nxt) b', Ok true)
    else (mkM [] (SL ST_WAITING pos) b', Ok false).
  Proof.
    intros Hx Hbc Hsub Hnxt. rewrite sfm_eq by assumption. cbv zeta. cbn [pst bus].
    rewrite fastscan_waiting by exact Hx.
    destruct (bc =? 128); [eexists; reflexivity|].
    destruct (_ && _); eexists; reflexivity.
  Qed.

  (* loop invariant of the inner loop: before bit n-1 is tried the id agrees with the slave on bits 31..n;
     lss_next = lss_sub while the bits of a part are asked, hence [sub sub] *)
  Lemma scan_bits_ok sub : 0 <= sub < 4 -> u32 (nth (Z.to_nat sub) ids 0) ->
    forall n q b, (n <= 32)%nat ->
    exists q' b',
    scan_bits slave_step n (mkM q (SL ST_WAITING sub) b) (hi (nth (Z.to_nat sub) ids 0) (Z.of_nat n)) sub sub =
    (mkM q' (SL ST_WAITING sub) b', Ok (nth (Z.to_nat sub) ids 0)).
  Proof.
    intros Hsub Hx. set (x := nth (Z.to_nat sub) ids 0) in *.
    induction n as [|k IH]; intros q b Hn.
    - exists q, b. cbn [scan_bits]. change (Z.of_nat 0) with 0. now rewrite hi_0.
    - cbn [scan_bits].
      destruct (sfm_slave q b sub (hi x (Z.of_nat (S k))) (Z.of_nat k) sub sub) as [b1 E];
        [apply hi_u32; [lia|assumption]|unfold u8; lia..|].
      rewrite E. fold x. replace (Z.of_nat k =? 128) with false by lia.
      replace ((Z.of_nat k <? 32) && (sub <? 4) && (sub <? 4) && (sub =? sub)) with true by lia.
      replace (Z.of_nat (S k)) with (Z.of_nat k + 1) by lia.
      rewrite mask_test, Z.ltb_irrefl, andb_false_r by lia.
      destruct (IH [] b1 ltac:(lia)) as (q' & b' & E'). exists q', b'.
      rewrite (hi_step x (Z.of_nat k)) in E' by lia.
      destruct (Z.testbit x (Z.of_nat k)); exact E'.
  Qed.

  (* one pass of the outer loop: 32 bit questions and the confirm *)
  Lemma part_ok sub k q b l : 0 <= sub < 4 -> u32 (nth (Z.to_nat sub) ids 0) -> nth (Z.to_nat sub) l 0 = 0 ->
    exists b',
    scan_parts slave_step (S k) (mkM q (SL ST_WAITING sub) b) l sub sub =
    scan_parts slave_step k
      (mkM [] (SL (if sub =? 3 then ST_CONFIGURATION else ST_WAITING) (Z.land (sub + 1) 3)) b')
      (upd l sub (nth (Z.to_nat sub) ids 0)) (sub + 1) (Z.land (sub + 1) 3).
  Proof.
    intros Hsub Hx Hl. cbn [scan_parts]. rewrite Hl.
    destruct (scan_bits_ok sub Hsub Hx 32%nat q b (le_n _)) as (q1 & b1 & E1).
    change (Z.of_nat 32) with 32 in E1. rewrite (hi_32 _ Hx) in E1. rewrite E1. cbn [sbind].
    pose proof (next_part_range sub Hsub) as Hn.
    destruct (sfm_slave q1 b1 sub (nth (Z.to_nat sub) ids 0) 0 sub (Z.land (sub + 1) 3)) as [b2 E2];
      [assumption|unfold u8; lia..|].
    exists b2. rewrite E2, !Z.eqb_refl, next_part_wraps by exact Hsub.
    replace ((0 <? 32) && (sub <? 4) && (Z.land (sub + 1) 3 <? 4) && true && true) with true by lia.
    reflexivity.
  Qed.
End Scan.

Lemma scan_parts_S {P} (peer : P -> Z -> list Z -> P * list (Z * list Z)) k st l sub nxt :
  scan_parts peer (S k) st l sub nxt =
  sbind (scan_bits peer 32 st (nth (Z.to_nat sub) l 0) sub nxt) (fun st idn =>
  sbind (send_fast_scan_message peer st idn 0 sub (Z.land (sub + 1) 3)) (fun st ok =>
  if ok then scan_parts peer k st (upd l sub idn) (sub + 1) (Z.land (sub + 1) 3) else (st, Ok (false, None)))).
Proof. reflexivity. Qed.

Lemma fast_scan_finds_identity v p r s q b pos sel idn0 bt dl sn sb se :
  u32 v -> u32 p -> u32 r -> u32 s ->
  exists b',
  fast_scan slave_step (mkM q (mkSlave [v; p; r; s] ST_WAITING NODE_UNCONFIGURED pos sel idn0 bt dl sn sb se) b) =
  (mkM [] (mkSlave [v; p; r; s] ST_CONFIGURATION NODE_UNCONFIGURED 0 sel idn0 bt dl sn sb se) b',
   Ok (true, Some [v; p; r; s])).
Proof.
  intros Hv Hp Hr Hs. pose proof (part_ok [v; p; r; s] sel idn0 bt dl sn sb se) as part.
  destruct (sfm_slave [v; p; r; s] sel idn0 bt dl sn sb se q b pos 0 128 0 0) as [b0 E0]; [unfold u32, u8; lia..|].
  destruct (part 0 3%nat [] b0 [0; 0; 0; 0]) as [b1 E1]; [lia|exact Hv|reflexivity|].
  destruct (part 1 2%nat [] b1 [v; 0; 0; 0]) as [b2 E2]; [lia|exact Hp|reflexivity|].
  destruct (part 2 1%nat [] b2 [v; p; 0; 0]) as [b3 E3]; [lia|exact Hr|reflexivity|].
  destruct (part 3 0%nat [] b3 [v; p; r; 0]) as [b4 E4]; [lia|exact Hs|reflexivity|].
  exists b4. unfold fast_scan.
  change (mkSlave _ _ _ _ _ _ _ _ _ _ _) with (SL [v; p; r; s] sel idn0 bt dl sn sb se ST_WAITING pos) at 1.
  (* the four passes chain by conversion: (k + 1) & 3, k =? 3 and the update of the literal list compute *)
  rewrite E0. exact (eq_trans E1 (eq_trans E2 (eq_trans E3 E4))).
Qed.

Lemma pad8_shape l : bytes_ok l -> length (pad8 l) = 8%nat /\ bytes_ok (pad8 l).
Proof.
  intros H. unfold pad8. split; [rewrite firstn_length, app_length, repeat_length; lia|].
  apply Forall_firstn_skipn, Forall_app. split; [exact H|]. apply Forall_forall. intros x Hx.
  apply repeat_spec in Hx. subst. unfold byte_ok. lia.
Qed.

Section Requests.
  Context {P : Type} (peer : P -> Z -> list Z -> P * list (Z * list Z)).
  Notation M := (mstate P).

  (* the frames CiA 305 prescribes for each call (pad8: specifier, little-endian fields, reserved bytes 0) *)
  Definition std_requests (o : lss_op) : list (list Z) :=
    match o with
    | OGlobal m => [pad8 [STD_SWITCH_GLOBAL; m]]
    | OSelective v p r s =>
        [pad8 (STD_SEL_VENDOR :: le_encode 4 v); pad8 (STD_SEL_PRODUCT :: le_encode 4 p);
         pad8 (STD_SEL_REVISION :: le_encode 4 r); pad8 (STD_SEL_SERIAL :: le_encode 4 s)]
    | OInqNode => [pad8 [STD_INQ_NODE_ID]]
    | OInqAddr cs => [pad8 [cs]]
    | OCfgNode n => [pad8 [STD_CFG_NODE_ID; n]]
    | OCfgBit b => [pad8 [STD_CFG_BIT_TIMING; 0; b]]
    | OActivate d => [pad8 (STD_ACTIVATE_BIT_TIMING :: le_encode 2 d)]
    | OStore => [pad8 [STD_STORE]]
    | OIdentRemote v p rl rh sl sh =>
        [pad8 (STD_IDENT_VENDOR :: le_encode 4 v); pad8 (STD_IDENT_PRODUCT :: le_encode 4 p);
         pad8 (STD_IDENT_REV_LOW :: le_encode 4 rl); pad8 (STD_IDENT_REV_HIGH :: le_encode 4 rh);
         pad8 (STD_IDENT_SER_LOW :: le_encode 4 sl); pad8 (STD_IDENT_SER_HIGH :: le_encode 4 sh)]
    | OIdentNonCfg => [pad8 [STD_IDENT_NON_CONFIGURED]]
    | OFastScan => []
    | OInject _ _ => []
    | ONet => []
    end.

  Definition op_in_range (o : lss_op) : Prop :=
    match o with
    | OGlobal m => u8 m
    | OSelective v p r s => u32 v /\ u32 p /\ u32 r /\ u32 s
    | OInqNode => True
    | OInqAddr cs => STD_INQ_VENDOR <= cs <= STD_INQ_SERIAL
    | OCfgNode n => u8 n
    | OCfgBit b => u8 b
    | OActivate d => u16 d
    | OStore => True
    | OIdentRemote v p rl rh sl sh => u32 v /\ u32 p /\ u32 rl /\ u32 rh /\ u32 sl /\ u32 sh
    | OIdentNonCfg => True
    | OFastScan => False
    | OInject _ _ => False
    | ONet => False
    end.

  Lemma send_configure_sent (st : M) cs v1 v2 : u8 cs -> u8 v1 -> u8 v2 ->
    sent (bus (fst (send_configure peer st cs v1 v2))) = sent (bus st) ++ [(LSS_TX_COBID, [cs; v1; v2; 0; 0; 0; 0; 0])].
  Proof.
    intros H0 H1 H2. unfold send_configure. rewrite !byte_arg_ok by assumption. cbn [sbind].
    apply request_sent. intros st' a. destruct (unpack_BB a) as [[c e]|k|c]; cbn [sbind fst snd]; try reflexivity.
    destruct (negb (c =? cs)); [reflexivity|]. destruct (negb (e =? ERROR_NONE)); reflexivity.
  Qed.

  Lemma requests_exact (st : M) o : op_in_range o ->
    sent (bus (fst (run_op peer st o))) = sent (bus st) ++ map (fun f => (STD_MASTER_COBID, f)) (std_requests o).
  Proof.
    destruct o; cbn [op_in_range run_op fst std_requests map]; intros H; try contradiction.
    - unfold switch_state_global. rewrite byte_arg_ok by assumption. now apply request_sent.
    - destruct H as (Hv & Hp & Hr & Hs). unfold switch_state_selective.
      rewrite !sla_unawaited by (assumption || reflexivity).
      rewrite send_lss_address_eq by (assumption || reflexivity).
      rewrite request_sent by (intros st' a; now destruct (unpack_B a)).
      rewrite !send_command_sent, <- !app_assoc. reflexivity.
    - apply request_sent. intros st' a. destruct (unpack_BB a) as [[c e]|k|c]; cbn [sbind fst snd]; try reflexivity.
      now destruct (negb (c =? CS_INQUIRE_NODE_ID)).
    - unfold inquire_lss_address. rewrite byte_arg_ok by (unfold u8, STD_INQ_VENDOR, STD_INQ_SERIAL in *; lia).
      apply request_sent. intros st' a. destruct (unpack_BI a) as [[c e]|k|c']; cbn [sbind fst snd]; try reflexivity.
      now destruct (negb (c =? cs)).
    - exact (send_configure_sent st CS_CONFIGURE_NODE_ID n 0 (u8_dec CS_CONFIGURE_NODE_ID eq_refl) H (u8_dec 0 eq_refl)).
    - exact (send_configure_sent st CS_CONFIGURE_BIT_TIMING 0 b (u8_dec CS_CONFIGURE_BIT_TIMING eq_refl) (u8_dec 0 eq_refl) H).
    - unfold activate_bit_timing. rewrite pack_u16_ok by assumption. now apply request_sent.
    - exact (send_configure_sent st CS_STORE_CONFIGURATION 0 0 (u8_dec CS_STORE_CONFIGURATION eq_refl) (u8_dec 0 eq_refl) (u8_dec 0 eq_refl)).
    - destruct H as (H1 & H2 & H3 & H4 & H5 & H6). unfold identify_remote_slave.
      rewrite !sla_unawaited by (assumption || reflexivity). cbn [fst].
      rewrite !send_command_sent, <- !app_assoc. reflexivity.
    - now apply request_sent.
  Qed.
End Requests.

Lemma std_requests_shape o : op_in_range o -> Forall (fun f => length f = 8%nat /\ bytes_ok f) (std_requests o).
Proof.
  assert (F : forall c l, u8 c -> bytes_ok l -> length (pad8 (c :: l)) = 8%nat /\ bytes_ok (pad8 (c :: l))).
  { intros c l Hc Hl. apply pad8_shape. now constructor. }
  assert (B : forall x, u8 x -> bytes_ok [x]) by (intros x Hx; exact (Forall_cons x Hx (Forall_nil _))).
  (* frame by frame; a closed specifier is a byte by evaluation, which leaves the bytes after it *)
  destruct o; cbn [op_in_range std_requests]; intros H; try contradiction;
    repeat (apply Forall_cons; [apply F; [now apply u8_dec|]|]); try apply Forall_nil; try apply le_encode_ok.
  - exact (B _ H).
  - apply Forall_cons; [apply F|]; [|constructor..]. unfold u8, STD_INQ_VENDOR, STD_INQ_SERIAL in *. lia.
  - exact (B _ H).
  - constructor; [now apply u8_dec|exact (B _ H)].
Qed.

Definition fs_first : list Z := [STD_FAST_SCAN; 0; 0; 0; 0; STD_BITCHECK_RESET; 0; 0].

(* a well-formed fast-scan request (CiA 305): specifier 0x51, IDNumber little endian, BitCheck 0..31 or 0x80,
   LSSSub and LSSNext 0..3, on the master's COB-ID *)
Definition fs_wf (m : Z * list Z) : Prop :=
  fst m = STD_MASTER_COBID /\
  exists idn bc sub nxt,
    snd m = STD_FAST_SCAN :: le_encode 4 idn ++ [bc; sub; nxt] /\ u32 idn /\
    (bc = STD_BITCHECK_RESET \/ 0 <= bc < 32) /\ 0 <= sub < 4 /\ 0 <= nxt < 4.

Section ScanFrames.
  Context {P : Type} (peer : P -> Z -> list Z -> P * list (Z * list Z)).
  Notation M := (mstate P).

  (* nobody answers the first frame: no slave *)
  Lemma fast_scan_no_answer (st : M) : rxq (snd (peer (pst st) LSS_TX_COBID fs_first)) = [] ->
    snd (fast_scan peer st) = Ok (false, None) /\
    sent (bus (fst (fast_scan peer st))) = sent (bus st) ++ [(STD_MASTER_COBID, fs_first)].
  Proof.
    intros H. unfold fast_scan. rewrite sfm_eq by (unfold u32, u8; lia). cbv zeta.
    change (CS_FAST_SCAN :: le_encode 4 0 ++ [128; 0; 0]) with fs_first. rewrite H. cbn [sbind fst snd bus].
    split; [reflexivity|apply sent_request].
  Qed.

  (* st' has sent some more frames than st, all of them well-formed fast-scan requests *)
  Definition extends (st st' : M) : Prop := exists l, sent (bus st') = sent (bus st) ++ l /\ Forall fs_wf l.

  Lemma extends_refl st : extends st st.
  Proof. exists []. split; [now rewrite app_nil_r|constructor]. Qed.

  Lemma extends_trans a b c : extends a b -> extends b c -> extends a c.
  Proof.
    intros (l1 & E1 & F1) (l2 & E2 & F2). exists (l1 ++ l2). split.
    - now rewrite E2, E1, app_assoc.
    - apply Forall_app. split; assumption.
  Qed.

  Lemma sbind_extends {A B} st (x : M * res A) (k : M -> A -> M * res B) :
    extends st (fst x) -> (forall a, snd x = Ok a -> extends (fst x) (fst (k (fst x) a))) -> extends st (fst (sbind x k)).
  Proof.
    destruct x as [st1 [a|e|c]]; cbn [sbind fst snd]; intros X K; try exact X.
    exact (extends_trans _ _ _ X (K a eq_refl)).
  Qed.

  Lemma sfm_extends (st : M) idn bc sub nxt :
    u32 idn -> (bc = 128 \/ 0 <= bc < 32) -> 0 <= sub < 4 -> 0 <= nxt < 4 ->
    extends st (fst (send_fast_scan_message peer st idn bc sub nxt)).
  Proof.
    intros Hi Hb Hs Hn. exists [(LSS_TX_COBID, CS_FAST_SCAN :: le_encode 4 idn ++ [bc; sub; nxt])]. split.
    - apply sfm_sent; [assumption|unfold u8; lia..].
    - repeat constructor. exists idn, bc, sub, nxt. auto.
  Qed.

  (* lss_id[lss_sub] |= 1 << lss_bit_check *)
  Lemma next_id_u32 idn k (found : bool) : u32 idn -> 0 <= k < 32 -> u32 (if found then idn else Z.lor idn (Z.shiftl 1 k)).
  Proof. intros Hi Hk. destruct found; [exact Hi|]. apply u32_lor; [exact Hi|]. now apply u32_bit. Qed.

  Lemma scan_bits_u32 sub nxt n : forall (st : M) idn v, (n <= 32)%nat -> u32 idn ->
    snd (scan_bits peer n st idn sub nxt) = Ok v -> u32 v.
  Proof.
    induction n as [|k IH]; cbn [scan_bits]; intros st idn v Hk Hi E.
    - injection E as <-. exact Hi.
    - destruct (send_fast_scan_message peer st idn (Z.of_nat k) sub nxt) as [st1 [found|e|c]]; try discriminate.
      apply IH in E; [exact E|lia|]. apply next_id_u32; [exact Hi|lia].
  Qed.

  Lemma scan_bits_extends sub nxt : 0 <= sub < 4 -> 0 <= nxt < 4 ->
    forall n (st : M) idn, (n <= 32)%nat -> u32 idn -> extends st (fst (scan_bits peer n st idn sub nxt)).
  Proof.
    intros Hs Hn. induction n as [|k IH]; cbn [scan_bits]; intros st idn Hk Hi.
    - apply extends_refl.
    - apply sbind_extends; [apply sfm_extends; auto; lia|]. intros found _.
      apply IH; [lia|]. apply next_id_u32; [exact Hi|lia].
  Qed.

  Lemma upd_u32 l i v : Forall u32 l -> u32 v -> Forall u32 (upd l i v).
  Proof.
    intros Hl Hv. unfold upd. apply Forall_app. split; [now apply Forall_firstn_skipn|].
    constructor; [exact Hv|now apply Forall_firstn_skipn].
  Qed.

  Lemma scan_parts_extends : forall n (st : M) l sub nxt,
    Forall u32 l -> 0 <= sub -> sub + Z.of_nat n <= 4 -> 0 <= nxt < 4 ->
    extends st (fst (scan_parts peer n st l sub nxt)).
  Proof.
    induction n as [|k IH]; intros st l sub nxt Hl Hs Hn Hx.
    - apply extends_refl.
    - rewrite scan_parts_S.
      assert (H0 : u32 (nth (Z.to_nat sub) l 0)).
      { destruct (nth_in_or_default (Z.to_nat sub) l 0) as [I| ->]; [|unfold u32; lia].
        exact (proj1 (Forall_forall u32 l) Hl _ I). }
      pose proof (next_part_range sub ltac:(lia)) as Hn'.
      apply sbind_extends; [apply scan_bits_extends; auto; lia|]. intros idn E.
      apply scan_bits_u32 in E; [|auto..].
      apply sbind_extends; [apply sfm_extends; auto; lia|]. intros [|] _; [|apply extends_refl].
      apply IH; try lia. now apply upd_u32.
  Qed.

  (* every frame the scan sends, whatever the rest of the bus does, is a well-formed fast-scan request *)
  Lemma fast_scan_requests_wellformed (st : M) : extends st (fst (fast_scan peer st)).
  Proof.
    assert (H0 : u32 0) by (unfold u32; lia).
    apply sbind_extends; [apply sfm_extends; auto; lia|]. intros [|] _; [|apply extends_refl].
    apply scan_parts_extends; try lia. repeat (apply Forall_cons; [exact H0|]). apply Forall_nil.
  Qed.
End ScanFrames.

Section Answers.
  Context {P : Type} (peer : P -> Z -> list Z -> P * list (Z * list Z)).
  Notation M := (mstate P).

  (* the slave's answer to a request: the first frame sent on the slave's COB-ID in reaction to it
     (whatever was in the queue before the request is discarded by __send_command) *)
  Definition answer (st : M) (msg : list Z) : option (list Z) :=
    hd_error (rxq (snd (peer (pst st) LSS_TX_COBID msg))).

  (* a request in ListMessageNeedResponse yields the answer, or LssError on silence; K decodes the answer *)
  Lemma awaited {A} (st : M) msg (K : M -> option (list Z) -> M * res A) :
    zmem (nth 0 msg 0) ListMessageNeedResponse = true ->
    snd (sbind (send_command peer st msg) K) =
    match answer st msg with
    | None => Err E_LSS
    | Some r => snd (K (fst (send_command peer st msg)) (Some r))
    end.
  Proof. intros H. rewrite send_command_eq. cbv zeta. rewrite H. unfold answer. now destruct (rxq _). Qed.

  (* configure node-id / configure bit timing / store configuration *)
  Definition cfg_result (cs : Z) (a : option (list Z)) : res unit :=
    match a with
    | None => Err E_LSS                                                  (* silence *)
    | Some (c :: e :: _) => if (c =? cs) && (e =? 0) then Ok tt else Err E_LSS   (* wrong specifier / error code *)
    | Some _ => Err E_STRUCT                                             (* a reply shorter than two bytes *)
    end.

  Lemma send_configure_result (st : M) cs v1 v2 : u8 cs -> u8 v1 -> u8 v2 -> zmem cs ListMessageNeedResponse = true ->
    snd (send_configure peer st cs v1 v2) = cfg_result cs (answer st [cs; v1; v2; 0; 0; 0; 0; 0]).
  Proof.
    intros H0 H1 H2 HL. unfold send_configure. rewrite !byte_arg_ok by assumption. cbn [sbind].
    rewrite awaited by exact HL. destruct (answer _ _) as [[|c [|e t]]|]; try reflexivity.
    cbn [sbind unpack_BB cfg_result snd fst]. change ERROR_NONE with 0.
    destruct (c =? cs); [|reflexivity]. now destruct (e =? 0).
  Qed.

  Definition inq_node_result (a : option (list Z)) : res Z :=
    match a with
    | None => Err E_LSS
    | Some (c :: n :: _) => if c =? STD_INQ_NODE_ID then Ok n else Err E_LSS
    | Some _ => Err E_STRUCT
    end.

  Lemma inquire_node_id_result (st : M) :
    snd (inquire_node_id peer st) = inq_node_result (answer st (pad8 [STD_INQ_NODE_ID])).
  Proof.
    unfold inquire_node_id. rewrite awaited by reflexivity.
    change (pad8 [STD_INQ_NODE_ID]) with [CS_INQUIRE_NODE_ID; 0; 0; 0; 0; 0; 0; 0].
    destruct (answer _ _) as [[|c [|e t]]|]; try reflexivity.
    cbn [sbind unpack_BB inq_node_result snd fst]. change STD_INQ_NODE_ID with CS_INQUIRE_NODE_ID.
    now destruct (c =? CS_INQUIRE_NODE_ID).
  Qed.

  Definition inq_addr_result (cs : Z) (a : option (list Z)) : res Z :=
    match a with
    | None => Err E_LSS
    | Some l => if 5 <=? zlen l then (if nth 0 l 0 =? cs then Ok (le_decode (firstn 4 (skipn 1 l))) else Err E_LSS)
                else Err E_STRUCT
    end.

  Lemma inquire_lss_address_result (st : M) cs : STD_INQ_VENDOR <= cs <= STD_INQ_SERIAL ->
    snd (inquire_lss_address peer st cs) = inq_addr_result cs (answer st (pad8 [cs])).
  Proof.
    intros Hc. unfold STD_INQ_VENDOR, STD_INQ_SERIAL in Hc. unfold inquire_lss_address.
    rewrite byte_arg_ok by (unfold u8; lia). cbn [sbind]. rewrite awaited.
    2:{ assert (C : cs = 90 \/ cs = 91 \/ cs = 92 \/ cs = 93) by lia. now destruct C as [ -> | [ -> | [ -> | -> ] ] ]. }
    change (pad8 [cs]) with [cs; 0; 0; 0; 0; 0; 0; 0].
    destruct (answer _ _) as [l|]; [|reflexivity]. cbn [sbind unpack_BI inq_addr_result].
    destruct (5 <=? zlen l); [|reflexivity]. cbn [sbind fst snd]. now destruct (nth 0 l 0 =? cs).
  Qed.

  (* switch state selective: confirmed exactly when the answer carries the response specifier *)
  Lemma switch_selective_result (st : M) v p r s : u32 v -> u32 p -> u32 r -> u32 s ->
    exists st3, sent (bus st3) = sent (bus st) ++ map (fun f => (STD_MASTER_COBID, f))
                   [pad8 (STD_SEL_VENDOR :: le_encode 4 v); pad8 (STD_SEL_PRODUCT :: le_encode 4 p);
                    pad8 (STD_SEL_REVISION :: le_encode 4 r)] /\
    snd (switch_state_selective peer st v p r s) =
    match answer st3 (pad8 (STD_SEL_SERIAL :: le_encode 4 s)) with
    | None => Err E_LSS
    | Some [] => Err E_STRUCT
    | Some (c :: _) => Ok (c =? STD_SEL_RESPONSE)
    end.
  Proof.
    intros Hv Hp Hr Hs. unfold switch_state_selective.
    rewrite !sla_unawaited by (assumption || reflexivity).
    set (st1 := fst (send_command peer st _)). set (st2 := fst (send_command peer st1 _)).
    set (st3 := fst (send_command peer st2 _)). exists st3. split.
    - subst st3 st2 st1. rewrite !send_command_sent, <- !app_assoc. reflexivity.
    - rewrite send_lss_address_eq, awaited by (assumption || reflexivity).
      change (pad8 (STD_SEL_SERIAL :: le_encode 4 s)) with (CS_SWITCH_STATE_SELECTIVE_SERIAL_NUMBER :: le_encode 4 s ++ [0; 0; 0]).
      now destruct (answer _ _) as [[|c t]|].
  Qed.
End Answers.

Lemma configure_results {P} (peer : P -> Z -> list Z -> P * list (Z * list Z)) (st : mstate P) n : u8 n ->
  snd (configure_node_id peer st n) = cfg_result STD_CFG_NODE_ID (answer peer st (pad8 [STD_CFG_NODE_ID; n])) /\
  snd (configure_bit_timing peer st n) = cfg_result STD_CFG_BIT_TIMING (answer peer st (pad8 [STD_CFG_BIT_TIMING; 0; n])) /\
  snd (store_configuration peer st) = cfg_result STD_STORE (answer peer st (pad8 [STD_STORE])).
Proof.
  intros Hn. pose proof (u8_dec 0 eq_refl) as H0. split; [|split].
  - exact (send_configure_result peer st CS_CONFIGURE_NODE_ID n 0 (u8_dec CS_CONFIGURE_NODE_ID eq_refl) Hn H0 eq_refl).
  - exact (send_configure_result peer st CS_CONFIGURE_BIT_TIMING 0 n (u8_dec CS_CONFIGURE_BIT_TIMING eq_refl) H0 Hn eq_refl).
  - exact (send_configure_result peer st CS_STORE_CONFIGURATION 0 0 (u8_dec CS_STORE_CONFIGURATION eq_refl) H0 H0 eq_refl).
Qed.

(* a request the reference slave reacts to without a frame leaves an empty queue, awaited or not *)
Lemma silent_request sl sl' q b msg : slave_step sl LSS_TX_COBID msg = (sl', silent) ->
  exists b', fst (send_command slave_step (mkM q sl b) msg) = mkM [] sl' b'.
Proof.
  intros R. rewrite send_command_eq. cbv zeta. cbn [pst]. rewrite R.
  destruct (negb _); eexists; reflexivity.
Qed.

(* a configure request the reference slave answers with [cs; e] succeeds exactly when e is 0 *)
Lemma send_configure_slave (sl sl' : slave) q b cs v1 v2 e :
  slave_step sl LSS_TX_COBID [cs; v1; v2; 0; 0; 0; 0; 0] = (sl', reply [cs; e]) ->
  u8 cs -> u8 v1 -> u8 v2 -> zmem cs ListMessageNeedResponse = true ->
  exists b', send_configure slave_step (mkM q sl b) cs v1 v2 = (mkM [] sl' b', if e =? 0 then Ok tt else Err E_LSS).
Proof.
  intros R Hc H1 H2 HL. unfold send_configure. rewrite !byte_arg_ok by assumption. cbn [sbind].
  rewrite send_command_eq. cbv zeta. cbn [pst nth]. rewrite R, HL. cbn [negb fst snd].
  change (rxq (reply [cs; e])) with [[cs; e; 0; 0; 0; 0; 0; 0]].
  eexists. cbn [sbind unpack_BB fst snd]. rewrite Z.eqb_refl. change ERROR_NONE with 0. cbn [negb].
  now destruct (e =? 0).
Qed.

Section Services.
  Context (v p r s : Z) (Hv : u32 v) (Hp : u32 p) (Hr : u32 r) (Hs : u32 s).
  Context (pos idn0 bt dl sn sb se : Z).
  Definition SS (mode node sel : Z) : slave := mkSlave [v; p; r; s] mode node pos sel idn0 bt dl sn sb se.

  (* a frame of switch state selective that carries the part it asks for, in its turn (the vendor-id at any time),
     slave in waiting state *)
  Lemma selective_match node sel cs x : u32 x -> x = nth (Z.to_nat (cs - STD_SEL_VENDOR)) [v; p; r; s] 0 ->
    cs = STD_SEL_VENDOR \/ sel = cs - STD_SEL_VENDOR ->
    slave_selective (SS ST_WAITING node sel) cs (cs :: le_encode 4 x ++ [0; 0; 0]) =
    if cs =? STD_SEL_SERIAL then (SS ST_CONFIGURATION node 0, reply [STD_SEL_RESPONSE])
    else (SS ST_WAITING node (cs - STD_SEL_VENDOR + 1), silent).
  Proof.
    intros Hx E Hsel. unfold slave_selective. cbv zeta. rewrite u32_at1 by exact Hx.
    change (sl_mode (SS ST_WAITING node sel) =? ST_WAITING) with true. cbv iota.
    change (part (SS ST_WAITING node sel) ?k) with (nth (Z.to_nat k) [v; p; r; s] 0). rewrite <- E, Z.eqb_refl.
    change (sl_sel (SS ST_WAITING node sel)) with sel.
    replace ((cs - STD_SEL_VENDOR =? 0) || (sel =? cs - STD_SEL_VENDOR)) with true by lia.
    now destruct (cs =? STD_SEL_SERIAL).
  Qed.

  (* a selective switch addressed to the slave's identity is confirmed and the slave is in configuration state *)
  Lemma switch_selective_confirmed q b node sel : exists b',
    switch_state_selective slave_step (mkM q (SS ST_WAITING node sel) b) v p r s =
    (mkM [] (SS ST_CONFIGURATION node 0) b', Ok true).
  Proof.
    unfold switch_state_selective. rewrite !sla_unawaited by (assumption || reflexivity).
    destruct (silent_request (SS ST_WAITING node sel) (SS ST_WAITING node 1) q b
                (CS_SWITCH_STATE_SELECTIVE_VENDOR_ID :: le_encode 4 v ++ [0; 0; 0])) as [b1 E1];
      [exact (selective_match node sel STD_SEL_VENDOR v Hv eq_refl (or_introl eq_refl))|rewrite E1].
    destruct (silent_request (SS ST_WAITING node 1) (SS ST_WAITING node 2) [] b1
                (CS_SWITCH_STATE_SELECTIVE_PRODUCT_CODE :: le_encode 4 p ++ [0; 0; 0])) as [b2 E2];
      [exact (selective_match node 1 STD_SEL_PRODUCT p Hp eq_refl (or_intror eq_refl))|rewrite E2].
    destruct (silent_request (SS ST_WAITING node 2) (SS ST_WAITING node 3) [] b2
                (CS_SWITCH_STATE_SELECTIVE_REVISION_NUMBER :: le_encode 4 r ++ [0; 0; 0])) as [b3 E3];
      [exact (selective_match node 2 STD_SEL_REVISION r Hr eq_refl (or_intror eq_refl))|rewrite E3].
    rewrite send_lss_address_eq, send_command_eq by (assumption || reflexivity). cbv zeta. cbn [pst].
    change (slave_step ?sl LSS_TX_COBID (_ :: ?t)) with (slave_selective sl STD_SEL_SERIAL (STD_SEL_SERIAL :: t)).
    rewrite (selective_match node 3 STD_SEL_SERIAL s Hs eq_refl (or_intror eq_refl)).
    eexists. reflexivity.
  Qed.

  Lemma inquire_node_id_slave q b node sel : exists b',
    inquire_node_id slave_step (mkM q (SS ST_CONFIGURATION node sel) b) = (mkM [] (SS ST_CONFIGURATION node sel) b', Ok node).
  Proof. unfold inquire_node_id. rewrite send_command_eq. eexists. reflexivity. Qed.

  Lemma inq_addr_known (sl : slave) q b cs x :
    slave_step sl LSS_TX_COBID [cs; 0; 0; 0; 0; 0; 0; 0] = (sl, reply (cs :: le_encode 4 x)) ->
    u8 cs -> zmem cs ListMessageNeedResponse = true -> u32 x ->
    exists b', inquire_lss_address slave_step (mkM q sl b) cs = (mkM [] sl b', Ok x).
  Proof.
    intros R Hc HL Hx. unfold inquire_lss_address. rewrite byte_arg_ok by assumption. cbn [sbind].
    rewrite send_command_eq. cbv zeta. cbn [pst nth]. rewrite R, HL. cbn [negb fst snd].
    change (rxq (reply (cs :: le_encode 4 x))) with [cs :: le_encode 4 x ++ [0; 0; 0]].
    eexists. cbn [sbind]. unfold unpack_BI. change (5 <=? zlen _) with true. cbv iota.
    rewrite le_at1 by exact Hx. cbn [sbind fst snd nth]. rewrite Z.eqb_refl. reflexivity.
  Qed.

  Lemma inquire_lss_address_slave q b node sel i : 0 <= i < 4 -> exists b',
    inquire_lss_address slave_step (mkM q (SS ST_CONFIGURATION node sel) b) (STD_INQ_VENDOR + i) =
    (mkM [] (SS ST_CONFIGURATION node sel) b', Ok (nth (Z.to_nat i) [v; p; r; s] 0)).
  Proof.
    intros Hi. assert (C : i = 0 \/ i = 1 \/ i = 2 \/ i = 3) by lia.
    destruct C as [ -> | [ -> | [ -> | -> ] ] ]; apply inq_addr_known;
      (reflexivity || assumption || now apply u8_dec).
  Qed.

  Lemma configure_node_id_slave q b node sel n : u8 n -> exists b',
    configure_node_id slave_step (mkM q (SS ST_CONFIGURATION node sel) b) n =
    (mkM [] (SS ST_CONFIGURATION (if node_id_valid n then n else node) sel) b',
     if node_id_valid n then Ok tt else Err E_LSS).
  Proof.
    intros Hn.
    assert (R : slave_step (SS ST_CONFIGURATION node sel) LSS_TX_COBID [CS_CONFIGURE_NODE_ID; n; 0; 0; 0; 0; 0; 0] =
                if node_id_valid n then (SS ST_CONFIGURATION n sel, reply [STD_CFG_NODE_ID; 0])
                else (SS ST_CONFIGURATION node sel, reply [STD_CFG_NODE_ID; 1])) by reflexivity.
    destruct (node_id_valid n); apply (send_configure_slave _ _ q b _ _ _ _ R); (reflexivity || assumption || now apply u8_dec).
  Qed.

  Lemma configure_bit_timing_slave q b node sel n : u8 n -> exists b',
    configure_bit_timing slave_step (mkM q (SS ST_CONFIGURATION node sel) b) n =
    (mkM [] (mkSlave [v; p; r; s] ST_CONFIGURATION node pos sel idn0 (if bit_timing_valid 0 n then n else bt) dl sn sb se) b',
     if bit_timing_valid 0 n then Ok tt else Err E_LSS).
  Proof.
    intros Hn.
    assert (R : slave_step (SS ST_CONFIGURATION node sel) LSS_TX_COBID [CS_CONFIGURE_BIT_TIMING; 0; n; 0; 0; 0; 0; 0] =
                if bit_timing_valid 0 n
                then (mkSlave [v; p; r; s] ST_CONFIGURATION node pos sel idn0 n dl sn sb se, reply [STD_CFG_BIT_TIMING; 0])
                else (SS ST_CONFIGURATION node sel, reply [STD_CFG_BIT_TIMING; 1])) by reflexivity.
    destruct (bit_timing_valid 0 n); apply (send_configure_slave _ _ q b _ _ _ _ R); (reflexivity || assumption || now apply u8_dec).
  Qed.

  Lemma store_configuration_slave q b node sel : exists b',
    store_configuration slave_step (mkM q (SS ST_CONFIGURATION node sel) b) =
    (mkM [] (mkSlave [v; p; r; s] ST_CONFIGURATION node pos sel idn0 bt dl (if se =? 0 then node else sn) (if se =? 0 then bt else sb) se) b',
     if se =? 0 then Ok tt else Err E_LSS).
  Proof.
    apply send_configure_slave; [|now apply u8_dec..|reflexivity].
    change (slave_step (SS ST_CONFIGURATION node sel) LSS_TX_COBID [CS_STORE_CONFIGURATION; 0; 0; 0; 0; 0; 0; 0])
      with ((if se =? 0 then mkSlave [v; p; r; s] ST_CONFIGURATION node pos sel idn0 bt dl node bt se
             else SS ST_CONFIGURATION node sel), reply [STD_STORE; se]).
    now destruct (se =? 0).
  Qed.
End Services.

Lemma inquire_against_slave v p r s : u32 v -> u32 p -> u32 r -> u32 s ->
  forall pos idn0 bt dl sn sb se q b node sel,
  (exists b', inquire_node_id slave_step (mkM q (mkSlave [v; p; r; s] ST_CONFIGURATION node pos sel idn0 bt dl sn sb se) b) =
              (mkM [] (mkSlave [v; p; r; s] ST_CONFIGURATION node pos sel idn0 bt dl sn sb se) b', Ok node)) /\
  (forall i, 0 <= i < 4 -> exists b',
     inquire_lss_address slave_step (mkM q (mkSlave [v; p; r; s] ST_CONFIGURATION node pos sel idn0 bt dl sn sb se) b)
                         (STD_INQ_VENDOR + i) =
     (mkM [] (mkSlave [v; p; r; s] ST_CONFIGURATION node pos sel idn0 bt dl sn sb se) b', Ok (nth (Z.to_nat i) [v; p; r; s] 0))).
Proof.
  intros Hv Hp Hr Hs pos idn0 bt dl sn sb se q b node sel. split.
  - exact (inquire_node_id_slave v p r s pos idn0 bt dl sn sb se q b node sel).
  - exact (inquire_lss_address_slave v p r s Hv Hp Hr Hs pos idn0 bt dl sn sb se q b node sel).
Qed.

(* a slave that is configured, or already in configuration state, does not take part in the scan *)
Lemma fast_scan_slave_not_taking_part s q b :
  (sl_mode s =? ST_WAITING) && (sl_node s =? NODE_UNCONFIGURED) = false ->
  snd (fast_scan slave_step (mkM q s b)) = Ok (false, None).
Proof.
  intros H. apply fast_scan_no_answer. cbn [pst].
  change (slave_step s LSS_TX_COBID fs_first) with (slave_fastscan s fs_first).
  unfold slave_fastscan. rewrite H. reflexivity.
Qed.

(* the regenerated constants of lss.py are those of CiA 305 *)
Lemma tables_are_cia305 :
  LSS_TX_COBID = STD_MASTER_COBID /\ LSS_RX_COBID = STD_SLAVE_COBID /\
  [CS_SWITCH_STATE_GLOBAL; CS_CONFIGURE_NODE_ID; CS_CONFIGURE_BIT_TIMING; CS_ACTIVATE_BIT_TIMING; CS_STORE_CONFIGURATION] =
  [STD_SWITCH_GLOBAL; STD_CFG_NODE_ID; STD_CFG_BIT_TIMING; STD_ACTIVATE_BIT_TIMING; STD_STORE] /\
  [CS_SWITCH_STATE_SELECTIVE_VENDOR_ID; CS_SWITCH_STATE_SELECTIVE_PRODUCT_CODE; CS_SWITCH_STATE_SELECTIVE_REVISION_NUMBER;
   CS_SWITCH_STATE_SELECTIVE_SERIAL_NUMBER; CS_SWITCH_STATE_SELECTIVE_RESPONSE] =
  [STD_SEL_VENDOR; STD_SEL_PRODUCT; STD_SEL_REVISION; STD_SEL_SERIAL; STD_SEL_RESPONSE] /\
  [CS_IDENTIFY_REMOTE_SLAVE_VENDOR_ID; CS_IDENTIFY_REMOTE_SLAVE_PRODUCT_CODE; CS_IDENTIFY_REMOTE_SLAVE_REVISION_NUMBER_LOW;
   CS_IDENTIFY_REMOTE_SLAVE_REVISION_NUMBER_HIGH; CS_IDENTIFY_REMOTE_SLAVE_SERIAL_NUMBER_LOW;
   CS_IDENTIFY_REMOTE_SLAVE_SERIAL_NUMBER_HIGH; CS_IDENTIFY_NON_CONFIGURED_REMOTE_SLAVE; CS_IDENTIFY_SLAVE;
   CS_IDENTIFY_NON_CONFIGURED_SLAVE; CS_FAST_SCAN] =
  [STD_IDENT_VENDOR; STD_IDENT_PRODUCT; STD_IDENT_REV_LOW; STD_IDENT_REV_HIGH; STD_IDENT_SER_LOW; STD_IDENT_SER_HIGH;
   STD_IDENT_NON_CONFIGURED; STD_IDENTIFY_SLAVE; STD_IDENTIFY_NON_CONFIGURED_SLAVE; STD_FAST_SCAN] /\
  [CS_INQUIRE_VENDOR_ID; CS_INQUIRE_PRODUCT_CODE; CS_INQUIRE_REVISION_NUMBER; CS_INQUIRE_SERIAL_NUMBER; CS_INQUIRE_NODE_ID] =
  [STD_INQ_VENDOR; STD_INQ_VENDOR + 1; STD_INQ_VENDOR + 2; STD_INQ_SERIAL; STD_INQ_NODE_ID] /\
  ERROR_NONE = 0 /\ WAITING_STATE = ST_WAITING /\ CONFIGURATION_STATE = ST_CONFIGURATION.
Proof. repeat split; reflexivity. Qed.

(* the confirmed services of CiA 305 *)
Definition confirmed_service (cs : Z) : bool :=
  (cs =? STD_CFG_NODE_ID) || (cs =? STD_CFG_BIT_TIMING) || (cs =? STD_STORE) || (cs =? STD_SEL_SERIAL) ||
  (cs =? STD_FAST_SCAN) || ((STD_INQ_VENDOR <=? cs) && (cs <=? STD_INQ_NODE_ID)).

Lemma zmem_cons k x r : zmem k (x :: r) = (k =? x) || zmem k r.
Proof. cbn [zmem]. now destruct (k =? x). Qed.

(* the requests the master waits on are exactly those: ListMessageNeedResponse is five single specifiers and the run
   of the inquire services *)
Lemma need_response_all cs : zmem cs ListMessageNeedResponse = confirmed_service cs.
Proof.
  unfold ListMessageNeedResponse, confirmed_service. rewrite !zmem_cons. cbn [zmem].
  unfold STD_CFG_NODE_ID, STD_CFG_BIT_TIMING, STD_STORE, STD_SEL_SERIAL, STD_FAST_SCAN, STD_INQ_VENDOR, STD_INQ_NODE_ID. lia.
Qed.

Lemma need_response_table cs : 0 <= cs < 256 -> zmem cs ListMessageNeedResponse = confirmed_service cs.
Proof. intros _. apply need_response_all. Qed.
