(* C04, the codec of Model/Codec.v: an integer entry of STRUCT_TYPES packs to, and unpacks from, the little-endian
   two's complement of its own width.  The table is checked once by evaluation ([table_ok]); IntegerN / UnsignedN,
   which borrow the next wider struct format and pad, are shown to act as a struct format of exactly w bits
   ([packN_struct], [unpack_intN_struct]), so that the theorems are proved over [pack_struct] / [unpack_struct] alone. *)
From Coq Require Import ZArith List Bool Lia.
From CV Require Import Base.Val Base.Bits Base.Bytes Base.Tys Gen.Tables Model.Codec.
Import ListNotations.
Open Scope Z_scope.

Definition int_packer (p : packer) : option (bool * Z) :=
  match p with
  | PStruct s w => Some (s, w)
  | PIntN w => Some (true, w)
  | PUintN w => Some (false, w)
  | _ => None
  end.

Lemma int_packer_bits p s w : int_packer p = Some (s, w) -> packer_bits p = w.
Proof. destruct p; cbn; intros H; try discriminate; injection H as _ <-; reflexivity. Qed.

Definition width_ok (w : Z) : bool := (w mod 8 =? 0) && (0 <? w) && (w <=? 64).
Definition struct_width_ok (w : Z) : bool := (w =? 8) || (w =? 16) || (w =? 32) || (w =? 64).

Definition entry_ok (e : Z * packer) : bool :=
  let '(t, p) := e in
  negb (t =? dt_VISIBLE_STRING) && negb (t =? dt_UNICODE_STRING) && negb (t =? dt_DOMAIN) && negb (t =? dt_OCTET_STRING) &&
  match p with
  | PStruct s w => struct_width_ok w && Bool.eqb s (zmem t SIGNED_TYPES) && zmem t INTEGER_TYPES
  | PIntN w => width_ok w && zmem t SIGNED_TYPES && zmem t INTEGER_TYPES
  | PUintN w => width_ok w && negb (zmem t SIGNED_TYPES) && zmem t INTEGER_TYPES
  | PBool => negb (zmem t SIGNED_TYPES)
  | PReal w => ((w =? 32) || (w =? 64)) && negb (zmem t SIGNED_TYPES)
  end.

Lemma table_ok : forallb entry_ok STRUCT_TYPES = true.
Proof. vm_compute. reflexivity. Qed.

Lemma entry_ok_of t p : zassoc t STRUCT_TYPES = Some p -> entry_ok (t, p) = true.
Proof.
  intros H. apply zassoc_In in H.
  pose proof table_ok as T. rewrite forallb_forall in T. exact (T _ H).
Qed.

Lemma firstn_le_encode n m v : (n <= m)%nat -> firstn n (le_encode m v) = le_encode n v.
Proof.
  revert m v. induction n as [|n IH]; intros m v H; [reflexivity|].
  destruct m as [|m]; [lia|]. cbn. f_equal. apply IH. lia.
Qed.

Lemma le_decode_repeat0 k : le_decode (repeat 0 k) = 0.
Proof. induction k as [|k IH]; cbn [repeat le_decode]; [reflexivity|]. rewrite IH. reflexivity. Qed.

Lemma le_decode_repeat255 k : le_decode (repeat 255 k) = 2 ^ (8 * Z.of_nat k) - 1.
Proof.
  induction k as [|k IH]; [reflexivity|].
  cbn [repeat le_decode]. rewrite IH, pow8S. ring.
Qed.

(* bit 7 of the last byte is the sign bit of the number *)
Lemma le_decode_top bs top : bytes_ok bs -> nth_error bs (length bs - 1) = Some top ->
  (0 <? Z.land top 128) = (2 ^ (8 * zlen bs - 1) <=? le_decode bs).
Proof.
  intros Hok Hn. assert (Hl : (length bs - 1 < length bs)%nat) by (apply nth_error_Some; congruence).
  unfold zlen. rewrite <- testbit_top, le_decode_testbit by (try apply le_decode_range; auto; lia).
  replace ((8 * Z.of_nat (length bs) - 1) / 8) with (Z.of_nat (length bs - 1)) by (Z.div_mod_to_equations; lia).
  replace ((8 * Z.of_nat (length bs) - 1) mod 8) with 7 by (Z.div_mod_to_equations; lia).
  rewrite Nat2Z.id, (nth_error_nth _ _ 0 Hn). change 128 with (2 ^ 7). rewrite land_pow2 by lia.
  now destruct (Z.testbit top 7).
Qed.

Lemma in_range_mono s w W v : w <= W -> in_range s w v = true -> in_range s W v = true.
Proof.
  intros HW H. unfold in_range in *.
  assert (2 ^ (w - 1) <= 2 ^ (W - 1)) by (apply Z.pow_le_mono_r; lia).
  assert (2 ^ w <= 2 ^ W) by (apply Z.pow_le_mono_r; lia).
  destruct s; lia.
Qed.

(* what a w-bit pattern u stands for: in range, and the same pattern again modulo 2^w *)
Lemma in_range_decoded (s : bool) w u : 0 < w -> 0 <= u < 2 ^ w ->
  in_range s w (if s then sext w u else u) = true /\ (if s then sext w u else u) mod 2 ^ w = u.
Proof.
  intros Hw Hu. unfold in_range. destruct s.
  - pose proof (sext_range w u Hw Hu). split; [lia|now apply mod_sext].
  - split; [lia|now apply Z.mod_small].
Qed.

Lemma decoded_mod (s : bool) w v : 0 < w -> in_range s w v = true ->
  (if s then sext w (v mod 2 ^ w) else v mod 2 ^ w) = v.
Proof. unfold in_range. intros Hw Hr. destruct s; [apply sext_mod|apply Z.mod_small]; lia. Qed.

Lemma width_div w : width_ok w = true -> 0 < w / 8 /\ w = 8 * (w / 8) /\ w <= 64.
Proof. unfold width_ok. Z.div_mod_to_equations. lia. Qed.

(* the struct format that IntegerN / UnsignedN borrow is w + 8k bits wide *)
Lemma wider_spec w : width_ok w = true -> exists k, 0 <= k /\ wider w / 8 - w / 8 = k /\ wider w = w + 8 * k.
Proof.
  intros H. exists (wider w / 8 - w / 8). unfold width_ok, wider in *.
  destruct (w <=? 8) eqn:A; [|destruct (w <=? 16) eqn:B; [|destruct (w <=? 32) eqn:C]]; Z.div_mod_to_equations; lia.
Qed.

Definition packer_wf (p : packer) : bool :=
  match p with
  | PStruct _ w => struct_width_ok w
  | PIntN w | PUintN w => width_ok w
  | _ => false
  end.

Lemma struct_width_is_width w : struct_width_ok w = true -> width_ok w = true.
Proof. unfold struct_width_ok, width_ok. Z.div_mod_to_equations. lia. Qed.

(* IntegerN(w) / UnsignedN(w) pack and unpack exactly as a struct format of w bits would *)
Lemma packN_struct s w v : width_ok w = true -> packN s w v = pack_struct s w v.
Proof.
  intros Hw. pose proof (width_div w Hw) as (Hd & He & H64). destruct (wider_spec w Hw) as (k & Hk & Hkk & HW).
  unfold packN, pack_struct. destruct (in_range s w v) eqn:Hr.
  - rewrite (in_range_mono s w (wider w) v) by (assumption || lia). cbn [rbind]. f_equal.
    apply firstn_le_encode. lia.
  - now destruct (in_range s (wider w) v).
Qed.

Lemma unpack_padded s w k bs fill : 0 <= k ->
  unpack_struct s (w + 8 * k) (bs ++ repeat fill (Z.to_nat k)) =
  if zlen bs =? w / 8
  then let u := le_decode bs + 2 ^ (8 * zlen bs) * le_decode (repeat fill (Z.to_nat k)) in
       Ok (if s then sext (w + 8 * k) u else u)
  else Err E_STRUCT.
Proof.
  intros Hk. unfold unpack_struct. rewrite zlen_app, zlen_repeat, le_decode_app.
  replace (zlen bs + Z.of_nat (Z.to_nat k) =? (w + 8 * k) / 8) with (zlen bs =? w / 8) by (Z.div_mod_to_equations; lia). reflexivity.
Qed.

Lemma unpack_uintN_struct w bs : width_ok w = true -> unpack_uintN w bs = unpack_struct false w bs.
Proof.
  intros Hw. pose proof (width_div w Hw) as (Hd & He & H64). destruct (wider_spec w Hw) as (k & Hk & Hkk & HW).
  unfold unpack_uintN. rewrite Hkk, HW, unpack_padded, le_decode_repeat0 by assumption.
  unfold unpack_struct. destruct (zlen bs =? w / 8); [|reflexivity]. cbv zeta. f_equal. lia.
Qed.

Lemma unpack_intN_struct w bs : width_ok w = true -> bytes_ok bs -> zlen bs = w / 8 ->
  unpack_intN w bs = unpack_struct true w bs.
Proof.
  intros Hw Hok Hl. pose proof (width_div w Hw) as (Hd & He & H64). destruct (wider_spec w Hw) as (k & Hk & Hkk & HW).
  unfold unpack_intN. replace (Z.to_nat (w / 8 - 1)) with (length bs - 1)%nat by (unfold zlen in Hl; lia).
  destruct (nth_error bs (length bs - 1)) as [top|] eqn:Hn.
  2:{ apply nth_error_None in Hn. unfold zlen in Hl. lia. }
  rewrite (le_decode_top bs top Hok Hn), Hkk, HW, unpack_padded by assumption.
  unfold unpack_struct. rewrite Hl, Z.eqb_refl. cbv zeta. f_equal.
  pose proof (le_decode_range bs Hok) as Hr. rewrite Hl, <- He in *.
  (* a negative number is padded with k bytes of 0xFF, which add 2^(w+8k) - 2^w: the argument [sext_widen] takes *)
  rewrite <- (sext_widen w (w + 8 * k)) by lia. f_equal.
  destruct (2 ^ (w - 1) <=? le_decode bs) eqn:Neg.
  - replace (le_decode bs <? 2 ^ (w - 1)) with false by lia.
    rewrite le_decode_repeat255, Z2Nat.id, Z.pow_add_r by lia. ring.
  - replace (le_decode bs <? 2 ^ (w - 1)) with true by lia. rewrite le_decode_repeat0. ring.
Qed.

Lemma unpack_intN_bad w bs : width_ok w = true -> zlen bs <> w / 8 ->
  exists k, unpack_intN w bs = Err k.
Proof.
  intros Hw Hl. pose proof (width_div w Hw) as (Hd & He & H64). destruct (wider_spec w Hw) as (k & Hk & Hkk & HW).
  unfold unpack_intN. destruct (nth_error bs (Z.to_nat (w / 8 - 1))); [|eauto].
  rewrite Hkk, HW, unpack_padded by assumption. replace (zlen bs =? w / 8) with false by lia. eauto.
Qed.

Lemma pack_int p s w v : packer_wf p = true -> int_packer p = Some (s, w) ->
  pack p (PInt v) = pack_struct s w v.
Proof.
  destruct p; cbn; intros Hwf Hp; try discriminate; injection Hp as <- <-; [reflexivity|..]; now apply packN_struct.
Qed.

Lemma unpack_int p s w bs : packer_wf p = true -> int_packer p = Some (s, w) -> bytes_ok bs -> zlen bs = w / 8 ->
  unpack p bs = Ok (PInt (if s then sext w (le_decode bs) else le_decode bs)).
Proof.
  destruct p; cbn; intros Hwf Hp Hok Hl; try discriminate; injection Hp as <- <-.
  2: rewrite unpack_intN_struct by assumption. 3: rewrite unpack_uintN_struct by assumption.
  all: unfold unpack_struct; rewrite Hl, Z.eqb_refl; reflexivity.
Qed.

Lemma unpack_int_bad p s w bs : packer_wf p = true -> int_packer p = Some (s, w) -> zlen bs <> w / 8 ->
  exists k, unpack p bs = Err k.
Proof.
  destruct p; cbn; intros Hwf Hp Hl; try discriminate; injection Hp as <- <-.
  2: destruct (unpack_intN_bad bits bs Hwf Hl) as (k & ->); cbn; eauto.
  2: rewrite unpack_uintN_struct by assumption.
  all: unfold unpack_struct; replace (zlen bs =? bits / 8) with false by lia; cbn; eauto.
Qed.

Lemma packer_wf_of t p s w : zassoc t STRUCT_TYPES = Some p -> int_packer p = Some (s, w) ->
  packer_wf p = true /\ width_ok w = true.
Proof.
  intros Ht Hp. pose proof (entry_ok_of t p Ht) as E. unfold entry_ok in E.
  destruct p; cbn in Hp; try discriminate; injection Hp as <- <-; cbn [packer_wf];
    cbv beta iota in E; rewrite !andb_true_iff in E.
  - assert (struct_width_ok bits = true) by tauto. split; [assumption|now apply struct_width_is_width].
  - assert (width_ok bits = true) by tauto. auto.
  - assert (width_ok bits = true) by tauto. auto.
Qed.

Lemma not_text t p : zassoc t STRUCT_TYPES = Some p ->
  (t =? dt_VISIBLE_STRING) = false /\ (t =? dt_UNICODE_STRING) = false /\ (t =? dt_DOMAIN) = false /\ (t =? dt_OCTET_STRING) = false.
Proof.
  intros Ht. pose proof (entry_ok_of t p Ht) as E. unfold entry_ok in E.
  rewrite !andb_true_iff, !negb_true_iff in E. tauto.
Qed.

Lemma signed_of t p : zassoc t STRUCT_TYPES = Some p ->
  zmem t SIGNED_TYPES = match int_packer p with Some (s, _) => s | None => false end.
Proof.
  intros Ht. pose proof (entry_ok_of t p Ht) as E. unfold entry_ok in E. apply andb_prop in E as [_ E].
  destruct p; cbn [int_packer]; rewrite ?andb_true_iff, ?negb_true_iff in E; [symmetry; apply eqb_prop|..]; tauto.
Qed.

Lemma encode_raw_struct t p v : zassoc t STRUCT_TYPES = Some p -> (forall b, v <> PBytes b) ->
  encode_raw (Some t) v = match pack p v with Err k => if k =? E_STRUCT then Err E_VALUE else Err k | r => r end.
Proof.
  intros Ht Hv. destruct (not_text t p Ht) as (A & B & C & D).
  unfold encode_raw. rewrite A, B, C, D, Ht. destruct v; try reflexivity. now destruct (Hv b).
Qed.

Lemma decode_raw_struct t p bs : zassoc t STRUCT_TYPES = Some p ->
  decode_raw (Some t) bs = match unpack p bs with Err k => if k =? E_STRUCT then Err E_OD else Err k | r => r end.
Proof. intros Ht. destruct (not_text t p Ht) as (A & B & _). unfold decode_raw. now rewrite A, B, Ht. Qed.

Lemma encode_int t p s w v : zassoc t STRUCT_TYPES = Some p -> int_packer p = Some (s, w) ->
  encode_raw (Some t) (PInt v) = if in_range s w v then Ok (le_encode (Z.to_nat (w / 8)) v) else Err E_VALUE.
Proof.
  intros Ht Hp. destruct (packer_wf_of t p s w Ht Hp) as (Hwf & Hw).
  rewrite (encode_raw_struct t p _ Ht), (pack_int p s w v Hwf Hp) by discriminate.
  unfold pack_struct. now destruct (in_range s w v).
Qed.

Lemma decode_int t p s w bs :
  zassoc t STRUCT_TYPES = Some p -> int_packer p = Some (s, w) -> bytes_ok bs -> zlen bs = w / 8 ->
  decode_raw (Some t) bs = Ok (PInt (if s then sext w (le_decode bs) else le_decode bs)).
Proof.
  intros Ht Hp Hok Hl. destruct (packer_wf_of t p s w Ht Hp) as (Hwf & _).
  now rewrite (decode_raw_struct t p _ Ht), (unpack_int p s w bs Hwf Hp Hok Hl).
Qed.

Theorem encode_exact t p s w v :
  zassoc t STRUCT_TYPES = Some p -> int_packer p = Some (s, w) -> in_range s w v = true ->
  encode_raw (Some t) (PInt v) = Ok (le_encode (Z.to_nat (w / 8)) v).
Proof. intros Ht Hp Hr. now rewrite (encode_int t p s w v Ht Hp), Hr. Qed.

Theorem encode_rejects t p s w v :
  zassoc t STRUCT_TYPES = Some p -> int_packer p = Some (s, w) -> in_range s w v = false ->
  encode_raw (Some t) (PInt v) = Err E_VALUE.
Proof. intros Ht Hp Hr. now rewrite (encode_int t p s w v Ht Hp), Hr. Qed.

Theorem decode_encode t p s w v :
  zassoc t STRUCT_TYPES = Some p -> int_packer p = Some (s, w) -> in_range s w v = true ->
  decode_raw (Some t) (le_encode (Z.to_nat (w / 8)) v) = Ok (PInt v).
Proof.
  intros Ht Hp Hr. destruct (packer_wf_of t p s w Ht Hp) as (_ & Hw).
  pose proof (width_div w Hw) as (Hd & He & H64).
  rewrite (decode_int t p s w) by (try apply le_encode_ok; try rewrite zlen_le_encode; auto; lia).
  rewrite le_decode_encode, Z2Nat.id, <- He, decoded_mod by (assumption || lia). reflexivity.
Qed.

Theorem encode_decode t p s w bs :
  zassoc t STRUCT_TYPES = Some p -> int_packer p = Some (s, w) -> bytes_ok bs -> zlen bs = w / 8 ->
  exists v, decode_raw (Some t) bs = Ok (PInt v) /\ in_range s w v = true /\ encode_raw (Some t) (PInt v) = Ok bs.
Proof.
  intros Ht Hp Hok Hl. destruct (packer_wf_of t p s w Ht Hp) as (_ & Hw).
  pose proof (width_div w Hw) as (Hd & He & H64).
  pose proof (le_decode_range bs Hok) as Hr. rewrite Hl, <- He in Hr.
  destruct (in_range_decoded s w _ ltac:(lia) Hr) as (Hin & Hm).
  eexists. split; [now apply (decode_int t p s w)|split; [exact Hin|]].
  rewrite (encode_exact t p s w _ Ht Hp Hin). f_equal.
  apply le_encode_unique; [exact Hok|exact Hl|now rewrite <- He].
Qed.

Theorem decode_rejects t p s w bs :
  zassoc t STRUCT_TYPES = Some p -> int_packer p = Some (s, w) -> zlen bs <> w / 8 ->
  exists k, decode_raw (Some t) bs = Err k.
Proof.
  intros Ht Hp Hl. destruct (packer_wf_of t p s w Ht Hp) as (Hwf & Hw).
  rewrite (decode_raw_struct t p _ Ht). destruct (unpack_int_bad p s w bs Hwf Hp Hl) as (k & ->).
  destruct (k =? E_STRUCT); eauto.
Qed.

Theorem encode_length t p s w v bs :
  zassoc t STRUCT_TYPES = Some p -> int_packer p = Some (s, w) ->
  encode_raw (Some t) (PInt v) = Ok bs -> zlen bs = w / 8 /\ bytes_ok bs /\ le_decode bs = v mod 2 ^ w /\ in_range s w v = true.
Proof.
  intros Ht Hp He. destruct (packer_wf_of t p s w Ht Hp) as (_ & Hw).
  pose proof (width_div w Hw) as (Hd & Hee & H64). rewrite (encode_int t p s w v Ht Hp) in He.
  destruct (in_range s w v); [injection He as <-|discriminate].
  rewrite zlen_le_encode, le_decode_encode, Z2Nat.id, <- Hee by lia. auto using le_encode_ok.
Qed.

(* CiA 301 basic data types: number -> (signed, width); written here from the standard *)
Definition cia301_int_types : list (Z * (bool * Z)) :=
  [(2, (true, 8)); (3, (true, 16)); (4, (true, 32)); (5, (false, 8)); (6, (false, 16)); (7, (false, 32));
   (16, (true, 24)); (18, (true, 40)); (19, (true, 48)); (20, (true, 56)); (21, (true, 64));
   (22, (false, 24)); (24, (false, 40)); (25, (false, 48)); (26, (false, 56)); (27, (false, 64))].

Theorem types_are_cia301 t s w : In (t, (s, w)) cia301_int_types ->
  exists p, zassoc t STRUCT_TYPES = Some p /\ int_packer p = Some (s, w).
Proof.
  assert (H : Forall (fun e => exists p, zassoc (fst e) STRUCT_TYPES = Some p /\ int_packer p = Some (snd e))
                cia301_int_types)
    by (repeat (constructor; [eexists; split; reflexivity|]); constructor).
  intros Hin. exact (proj1 (Forall_forall _ _) H _ Hin).
Qed.

Theorem bool_codec (b : bool) :
  zassoc dt_BOOLEAN STRUCT_TYPES = Some PBool ->
  encode_raw (Some dt_BOOLEAN) (PInt (if b then 1 else 0)) = Ok [if b then 1 else 0] /\
  decode_raw (Some dt_BOOLEAN) [if b then 1 else 0] = Ok (PInt (if b then 1 else 0)).
Proof.
  intros Ht. rewrite (encode_raw_struct _ _ _ Ht), (decode_raw_struct _ _ _ Ht) by discriminate.
  destruct b; cbn; auto.
Qed.

Theorem bool_decode_rejects bs : zassoc dt_BOOLEAN STRUCT_TYPES = Some PBool -> zlen bs <> 1 ->
  decode_raw (Some dt_BOOLEAN) bs = Err E_OD.
Proof.
  intros Ht Hl. rewrite (decode_raw_struct _ _ _ Ht). cbn [unpack].
  replace (zlen bs =? 1) with false by lia. reflexivity.
Qed.

Lemma real_width t w : zassoc t STRUCT_TYPES = Some (PReal w) -> w = 32 \/ w = 64.
Proof. intros Ht. pose proof (entry_ok_of _ _ Ht) as E. unfold entry_ok in E. lia. Qed.

Theorem real_codec t w bits : zassoc t STRUCT_TYPES = Some (PReal w) -> 0 <= bits < 2 ^ w ->
  encode_raw (Some t) (PFloat bits) = Ok (le_encode (Z.to_nat (w / 8)) bits) /\
  decode_raw (Some t) (le_encode (Z.to_nat (w / 8)) bits) = Ok (PFloat bits).
Proof.
  intros Ht Hb. pose proof (real_width t w Ht) as Hw.
  rewrite (encode_raw_struct _ _ _ Ht), (decode_raw_struct _ _ _ Ht) by discriminate.
  split; [reflexivity|]. cbn [unpack]. rewrite zlen_le_encode, le_decode_encode, !Z2Nat.id, Z.eqb_refl by (Z.div_mod_to_equations; lia).
  replace (8 * (w / 8)) with w by (Z.div_mod_to_equations; lia). rewrite Z.mod_small by lia. reflexivity.
Qed.

Theorem real_decode_rejects t w bs : zassoc t STRUCT_TYPES = Some (PReal w) -> zlen bs <> w / 8 ->
  decode_raw (Some t) bs = Err E_OD.
Proof.
  intros Ht Hl. rewrite (decode_raw_struct _ _ _ Ht). cbn [unpack].
  replace (zlen bs =? w / 8) with false by lia. reflexivity.
Qed.

Lemma rstrip0_id s : last s 1 <> 0 -> rstrip0 s = s.
Proof.
  induction s as [|c r IH]; [reflexivity|].
  intros H. cbn [rstrip0]. destruct r as [|d r'].
  - cbn in *. destruct (c =? 0) eqn:E; [lia|reflexivity].
  - rewrite IH by exact H. reflexivity.
Qed.

Lemma filter_id {A} (f : A -> bool) l : forallb f l = true -> filter f l = l.
Proof.
  induction l as [|x r IH]; cbn; [reflexivity|]. intros H. apply andb_prop in H as [H1 H2].
  rewrite H1, IH by assumption. reflexivity.
Qed.

Definition is_ascii (c : Z) : bool := (0 <=? c) && (c <? 128).

Theorem ascii_roundtrip s : forallb is_ascii s = true -> last s 1 <> 0 ->
  encode_raw (Some dt_VISIBLE_STRING) (PStr s) = Ok s /\
  decode_raw (Some dt_VISIBLE_STRING) s = Ok (PStr s).
Proof.
  intros Ha Hl. unfold encode_raw, decode_raw. rewrite Z.eqb_refl. unfold ascii_encode, ascii_decode.
  fold is_ascii. change (fun c => (0 <=? c) && (c <? 128)) with is_ascii. rewrite Ha. split; [reflexivity|].
  rewrite filter_id, rstrip0_id; auto.
  rewrite forallb_forall in *. intros x Hx. specialize (Ha x Hx). unfold is_ascii in Ha. lia.
Qed.

Theorem ascii_rejects s : forallb is_ascii s = false ->
  encode_raw (Some dt_VISIBLE_STRING) (PStr s) = Err E_VALUE.
Proof.
  intros Ha. unfold encode_raw. rewrite Z.eqb_refl. unfold ascii_encode.
  change (fun c => (0 <=? c) && (c <? 128)) with is_ascii. now rewrite Ha.
Qed.

(* Unicode scalar values: 0..0x10FFFF without the surrogate range *)
Definition is_scalar (c : Z) : bool := (0 <=? c) && (c <? 1114112) && negb (is_hi c) && negb (is_lo c).

Lemma utf16_units_ok s : forallb is_scalar s = true ->
  exists us, utf16_units s = Ok us /\ Forall (fun u => 0 <= u < 65536) us /\ utf16_dec_units us = s.
Proof.
  induction s as [|c r IH]; intros H.
  - exists []. cbn. auto.
  - cbn [forallb] in H. apply andb_prop in H as [Hc Hr]. destruct (IH Hr) as (us & E & F & D).
    cbn [utf16_units]. rewrite E. cbn [rbind].
    unfold is_scalar in Hc. rewrite !andb_true_iff, !negb_true_iff in Hc. destruct Hc as (((C0 & C1) & C2) & C3).
    replace ((c <? 0) || (1114112 <=? c) || is_hi c || is_lo c) with false by (rewrite C2, C3; lia).
    destruct (c <? 65536) eqn:B.
    + exists (c :: us). split; [reflexivity|]. split; [constructor; [lia|assumption]|].
      cbn [utf16_dec_units]. rewrite C2, C3, D. reflexivity.
    + set (c' := c - 65536).
      exists ((55296 + c' / 1024) :: (56320 + c' mod 1024) :: us). split; [reflexivity|].
      assert (R : 0 <= c' < 1048576) by (unfold c'; lia).
      split; [repeat constructor; try (Z.div_mod_to_equations; lia); assumption|].
      cbn [utf16_dec_units].
      replace (is_hi (55296 + c' / 1024)) with true by (unfold is_hi; Z.div_mod_to_equations; lia).
      replace (is_lo (56320 + c' mod 1024)) with true by (unfold is_lo; Z.div_mod_to_equations; lia).
      rewrite D. f_equal. unfold c'. Z.div_mod_to_equations. lia.
Qed.

Lemma pair_units_flat us : Forall (fun u => 0 <= u < 65536) us ->
  pair_units (flat_map (fun u => [u mod 256; u / 256]) us) = us.
Proof.
  induction 1 as [|u r Hu Hr IH]; [reflexivity|].
  cbn [flat_map app pair_units]. rewrite IH. f_equal. rewrite Z.add_comm. symmetry. apply Z.div_mod. lia.
Qed.

Theorem utf16_roundtrip s : forallb is_scalar s = true -> last s 1 <> 0 ->
  exists bs, encode_raw (Some dt_UNICODE_STRING) (PStr s) = Ok bs /\
             decode_raw (Some dt_UNICODE_STRING) bs = Ok (PStr s).
Proof.
  intros Hs Hl. destruct (utf16_units_ok s Hs) as (us & E & F & D).
  exists (flat_map (fun u => [u mod 256; u / 256]) us).
  assert (V : (dt_UNICODE_STRING =? dt_VISIBLE_STRING) = false) by reflexivity.
  unfold encode_raw, decode_raw. rewrite V, Z.eqb_refl. unfold utf16_encode, utf16_decode. rewrite E. cbn [rbind].
  split; [reflexivity|]. rewrite pair_units_flat, D, rstrip0_id by assumption. reflexivity.
Qed.
