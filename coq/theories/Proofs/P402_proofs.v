(* CiA 402 (Model/P402.v against the reference drive of Model/RefDrive.v, C19).  The statusword is decoded through its
   bits 0x6F alone, so the 128 values below 128 are evaluated.  The state setter is run on an abstraction of the
   drive (acfg: program counter, state, remembered bit 7).  For each commandable target the configurations reachable
   from every start are found by search and checked by evaluation to be closed under a step, to write harmless
   controlwords only and to end in the target (invariant_check); section Invariant turns that into the statement
   about every schedule of the automatic transitions. *)
From Coq Require Import ZArith List Bool String Lia.
From CV Require Import Base.Val Base.Bits Base.Bytes Base.Tys Gen.P402Tables Model.RefDrive Model.P402.
Import ListNotations.
Open Scope Z_scope.

(* all pattern bits live in 0x6F = 111 *)
Definition masks_ok (tbl : list (string * (Z * Z))) : bool :=
  forallb (fun e => Z.land (fst (snd e)) 111 =? fst (snd e)) tbl.

Lemma land_mask_absorb : forall k sw m, Z.land m k = m -> Z.land (Z.land sw k) m = Z.land sw m.
Proof.
  intros k sw m H. rewrite <- Z.land_assoc. rewrite (Z.land_comm k m). rewrite H. reflexivity.
Qed.

Lemma decode_in_low : forall tbl sw, masks_ok tbl = true ->
  decode_in tbl (Z.land sw 111) = decode_in tbl sw.
Proof.
  induction tbl as [|[name [m v]] r IH]; intros sw H; [reflexivity|].
  cbn [masks_ok forallb fst snd] in H. apply andb_true_iff in H. destruct H as [Hm Hr].
  apply Z.eqb_eq in Hm. cbn [decode_in]. rewrite (land_mask_absorb 111 sw m Hm).
  rewrite (IH sw Hr). reflexivity.
Qed.

Lemma decode_state_low : forall sw, decode_state (Z.land sw 111) = decode_state sw.
Proof. intro sw. apply decode_in_low. vm_compute. reflexivity. Qed.

Lemma low_range : forall sw, 0 <= Z.land sw 111 < 128.
Proof.
  intro sw. change 111 with (Z.land 111 (Z.ones 7)). rewrite Z.land_assoc, Z.land_ones by lia.
  apply Z.mod_pos_bound. reflexivity.
Qed.

Lemma sw_matches_low : forall sw s, sw_matches (Z.land sw 111) s = sw_matches sw s.
Proof.
  intros sw s. unfold sw_matches. destruct s; cbn [sw_pattern];
    rewrite land_mask_absorb by reflexivity; reflexivity.
Qed.

Lemma cia_states_low : forall sw, cia_states_of (Z.land sw 111) = cia_states_of sw.
Proof. intro sw. unfold cia_states_of. apply filter_ext. intro s. apply sw_matches_low. Qed.

(* for EVERY integer: the decoded state is the CiA 402 state whose pattern matches, UNKNOWN when
   none does, and at most one pattern matches *)
Lemma statusword_decoding_any : forall sw : Z,
  decode_state sw = cia_decode sw /\ (List.length (cia_states_of sw) <= 1)%nat.
Proof.
  intro sw.
  assert (C : forallb (fun k => String.eqb (decode_state k) (cia_decode k) && (List.length (cia_states_of k) <=? 1)%nat)
                      (map (fun i => 0 + Z.of_nat i) (seq 0 128)) = true) by (vm_compute; reflexivity).
  pose proof (range_forall _ 0 128 C _ (low_range sw)) as H. cbv beta in H. apply andb_true_iff in H. destruct H as [H1 H2].
  apply String.eqb_eq in H1. apply Nat.leb_le in H2.
  unfold cia_decode in *. rewrite decode_state_low, cia_states_low in H1. rewrite cia_states_low in H2.
  split; assumption.
Qed.

Lemma statusword_decoding : forall sw : Z, 0 <= sw < 65536 ->
  decode_state sw = cia_decode sw /\ (List.length (cia_states_of sw) <= 1)%nat.
Proof. intros sw _. apply statusword_decoding_any. Qed.

Lemma decode_ignores_extra_bits : forall sw extra : Z,
  Z.land extra 111 = 0 -> decode_state (Z.lor sw extra) = decode_state sw.
Proof.
  intros sw e H. rewrite <- (decode_state_low (Z.lor sw e)), <- (decode_state_low sw).
  rewrite Z.land_lor_distr_l, H, Z.lor_0_r. reflexivity.
Qed.

Lemma pattern_embed : forall v m e, Z.land v m = v -> Z.land (Z.lor v (Z.land e (Z.lnot m))) m = v.
Proof.
  intros v m e H. rewrite Z.land_lor_distr_l, H, <- Z.land_assoc.
  rewrite (Z.land_comm (Z.lnot m) m), Z.land_lnot_diag, Z.land_0_r, Z.lor_0_r. reflexivity.
Qed.

Lemma sw_of_matches : forall s e, sw_matches (sw_of s e) s = true.
Proof.
  intros s e. unfold sw_matches, sw_of. destruct s; cbn [sw_pattern];
    rewrite pattern_embed by reflexivity; reflexivity.
Qed.

Lemma all_dstates_in : forall s, In s all_dstates.
Proof. destruct s; cbn; tauto. Qed.

(* every statusword that a drive in state s may report decodes to the name of s *)
Lemma decode_sw_of : forall s e, decode_state (sw_of s e) = dstate_name s.
Proof.
  intros s e. destruct (statusword_decoding_any (sw_of s e)) as [H1 H2]. rewrite H1.
  assert (Hin : In s (cia_states_of (sw_of s e))) by (apply filter_In, (conj (all_dstates_in s) (sw_of_matches s e))).
  unfold cia_decode. destruct (cia_states_of (sw_of s e)) as [|a [|b r]].
  - contradiction.
  - destruct Hin as [->|[]]. reflexivity.
  - cbn in H2. lia.
Qed.

Lemma dstate_eqb_eq : forall a b, dstate_eqb a b = true -> a = b.
Proof. intros a b; destruct a, b; cbn; intro H; try reflexivity; discriminate. Qed.

Lemma dstate_eqb_refl : forall a, dstate_eqb a a = true.
Proof. destruct a; reflexivity. Qed.

Lemma name_eqb : forall a b, String.eqb (dstate_name a) (dstate_name b) = dstate_eqb a b.
Proof. intros a b; destruct a, b; reflexivity. Qed.

Lemma ostr_eqb_eq : forall a b, ostr_eqb a b = true -> a = b.
Proof.
  intros [a|] [b|]; cbn; intro H; try discriminate; try reflexivity.
  apply String.eqb_eq in H. congruence.
Qed.

Definition pc_eqb (a b : pc) : bool :=
  match a, b with
  | PLoop, PLoop | PNext, PNext | PDone, PDone => true
  | PChange x, PChange y | PWait x, PWait y | PCheck x, PCheck y => ostr_eqb x y
  | PFail x, PFail y => x =? y
  | _, _ => false
  end.

Lemma pc_eqb_eq : forall a b, pc_eqb a b = true -> a = b.
Proof.
  intros a b; destruct a, b; cbn; intro H; try discriminate; try reflexivity;
    try (apply ostr_eqb_eq in H; congruence).
  apply Z.eqb_eq in H. congruence.
Qed.

(* what matters of the drive for the run: its state and the remembered bit 7 *)
Definition acfg : Type := pc * dstate * bool.

Definition acfg_eqb (a b : acfg) : bool :=
  let '(p, s, l) := a in let '(p', s', l') := b in
  dstate_eqb s s' && Bool.eqb l l' && pc_eqb p p'.

Lemma acfg_eqb_eq : forall a b, acfg_eqb a b = true -> a = b.
Proof.
  intros [[p s] l] [[p' s'] l']. cbn. intro H.
  apply andb_true_iff in H. destruct H as [H H3]. apply andb_true_iff in H. destruct H as [H1 H2].
  apply dstate_eqb_eq in H1. apply Bool.eqb_prop in H2. apply pc_eqb_eq in H3. congruence.
Qed.

Definition amem (a : acfg) (l : list acfg) : bool := existsb (acfg_eqb a) l.

Lemma amem_in : forall a l, amem a l = true -> In a l.
Proof.
  intros a l H. apply existsb_exists in H. destruct H as [x [Hin He]].
  apply acfg_eqb_eq in He. subst. exact Hin.
Qed.

Definition astep (target : string) (a : acfg) (fire : bool) : acfg * option Z :=
  let '(p, s, l7) := a in
  if is_final p then (a, None)
  else
    let s1 := if fire then auto s else s in
    match p with
    | PCheck n => ((PWait n, s1, l7), None)
    | _ =>
        let '(p', cw) := lib_step target p (dstate_name s1) in
        match cw with
        | Some c => ((p', command s1 c l7, cw_bit7 c), Some c)
        | None => ((p', s1, l7), None)
        end
    end.

Definition ocons (o : option Z) (l : list Z) : list Z := match o with Some c => c :: l | None => l end.

(* the run of the abstract machine and the controlwords it writes, oldest first *)
Fixpoint arun (fuel : nat) (target : string) (a : acfg) (s : list bool) : acfg * list Z :=
  if is_final (fst (fst a)) then (a, [])
  else match fuel with
       | O => ((PFail E_FUEL, snd (fst a), snd a), [])
       | S f => let '(a', cw) := astep target a (hd true s) in
                let '(r, l) := arun f target a' (tl s) in (r, ocons cw l)
       end.

(* the concrete step on the reference drive is the abstract step: the setter sees the drive only through the decoded
   status, which is the name of the state whatever the other statusword bits d_extra are (decode_sw_of) *)
Lemma step_sdo_abs : forall target p d, is_final p = false ->
  let '(p', d') := step sdo_ops target p d in
  let '(a', cw) := astep target (p, d_st d, d_last7 d) (hd true (d_sched d)) in
  a' = (p', d_st d', d_last7 d') /\ d_sched d' = tl (d_sched d) /\ d_cws d' = ocons cw (d_cws d).
Proof.
  intros target p d Hf.
  assert (Hfire : match d_sched d with [] => true | b :: _ => b end = hd true (d_sched d))
    by (destruct (d_sched d); reflexivity).
  unfold astep. rewrite Hf.
  destruct p; try discriminate Hf; unfold step; cbn [sdo_ops w_sw w_check w_cw];
    unfold rd_status; rewrite Hfire; cbn [fst snd d_st d_sched d_extra d_last7 d_cws];
    try rewrite decode_sw_of;
    try (match goal with |- context [lib_step ?t ?q ?c] => destruct (lib_step t q c) as [p' [c'|]] end);
    unfold wr_cw, command; cbn [fst snd d_st d_sched d_extra d_last7 d_cws ocons]; repeat split; reflexivity.
Qed.

Lemma run_sdo_abs : forall n target p d,
  let '(p', d') := run sdo_ops n target p d in
  let '(a, l) := arun n target (p, d_st d, d_last7 d) (d_sched d) in
  a = (p', d_st d', d_last7 d') /\ d_cws d' = (rev l ++ d_cws d)%list.
Proof.
  induction n as [|n IH]; intros target p d; cbn [run arun fst snd].
  - destruct (is_final p); split; reflexivity.
  - destruct (is_final p) eqn:Hf; [split; reflexivity|].
    pose proof (step_sdo_abs target p d Hf) as Hs.
    destruct (step sdo_ops target p d) as [p1 d1].
    destruct (astep target (p, d_st d, d_last7 d) (hd true (d_sched d))) as [a1 cw].
    destruct Hs as [-> [Hsch Hcw]]. specialize (IH target p1 d1).
    destruct (run sdo_ops n target p1 d1) as [p' d']. rewrite <- Hsch.
    destruct (arun n target (p1, d_st d1, d_last7 d1) (d_sched d1)) as [r l].
    destruct IH as [-> IH]. split; [reflexivity|]. rewrite IH, Hcw.
    destruct cw; cbn [ocons rev]; rewrite <- ?app_assoc; reflexivity.
Qed.

(* reachable abstract configurations, by breadth-first search *)
Definition succs (target : string) (a : acfg) : list acfg :=
  [fst (astep target a true); fst (astep target a false)].

Fixpoint add_new (xs seen fresh : list acfg) : list acfg * list acfg :=
  match xs with
  | [] => (seen, fresh)
  | x :: r => if amem x seen then add_new r seen fresh else add_new r (x :: seen) (x :: fresh)
  end.

Fixpoint bfs (n : nat) (target : string) (seen frontier : list acfg) : list acfg :=
  match n with
  | O => seen
  | S n' =>
      match frontier with
      | [] => seen
      | _ => let '(seen', fresh) := add_new (flat_map (succs target) frontier) seen [] in
             bfs n' target seen' fresh
      end
  end.

Definition reach (t : dstate) : list acfg :=
  let init := map (fun x => (PLoop, x, false)) all_dstates in
  bfs 200 (dstate_name t) init init.

(* every state but the three for which BaseNode402._next_state raises ValueError ([uncommandable]) *)
Definition commandable (t : dstate) : bool :=
  match t with
  | SwitchOnDisabled | ReadyToSwitchOn | SwitchedOn | OperationEnabled | QuickStopActive => true
  | _ => false
  end.
(* a controlword is harmless for target t unless it carries the enable-operation command and the
   target is neither OPERATION ENABLED nor QUICK STOP ACTIVE *)
Definition may_enable (t : dstate) : bool :=
  match t with OperationEnabled | QuickStopActive => true | _ => false end.
Definition cw_safe (t : dstate) (c : Z) : bool := may_enable t || negb (is_enable_operation c).
Definition ocw_safe (t : dstate) (o : option Z) : bool := match o with Some c => cw_safe t c | None => true end.

(* number of steps that suffice once the automatic transitions fire immediately: the longest such run from a
   reachable configuration takes 23; K is only ever part of the fuel K + |s| given to the setter, so the margin is
   harmless *)
Definition K : nat := 40.

(* A set R of configurations is an invariant for target t when every step from R stays in R and writes a
   harmless controlword, when from each member the run in which the automatic transitions fire at once
   ends in t within K steps, and when R holds every start configuration.  The lemmas of the section are
   about any such R; [reach t] is one, by evaluation (machine_checks), and is never unfolded elsewhere. *)
Definition closed_check (t : dstate) (R : list acfg) : bool :=
  forallb (fun a => forallb (fun b => let '(a', cw) := astep (dstate_name t) a b in
                                      amem a' R && ocw_safe t cw) [true; false]) R.

Definition term_check (t : dstate) (R : list acfg) : bool :=
  forallb (fun a => match arun K (dstate_name t) a [] with
                    | ((PDone, s, _), l) => dstate_eqb s t && forallb (cw_safe t) l
                    | _ => false
                    end) R.

Definition invariant_check (t : dstate) (R : list acfg) : bool :=
  closed_check t R && term_check t R && forallb (fun x => amem (PLoop, x, false) R) all_dstates.

Section Invariant.
  Context (t : dstate) (R : list acfg) (HR : invariant_check t R = true).
  Let tn := dstate_name t.

  Lemma inv_closed : forall a b, In a R ->
    In (fst (astep tn a b)) R /\ ocw_safe t (snd (astep tn a b)) = true.
  Proof.
    intros a b Hin. unfold invariant_check in HR. rewrite !andb_true_iff in HR. destruct HR as [[H _] _].
    unfold closed_check in H. rewrite forallb_forall in H. specialize (H a Hin).
    rewrite forallb_forall in H. specialize (H b ltac:(destruct b; cbn; tauto)). fold tn in H.
    destruct (astep tn a b) as [a' cw]. apply andb_true_iff in H. destruct H as [H1 H2].
    split; [apply amem_in; exact H1 | exact H2].
  Qed.

  Lemma inv_term : forall a, In a R ->
    exists l7 l, arun K tn a [] = ((PDone, t, l7), l) /\ forallb (cw_safe t) l = true.
  Proof.
    intros a Hin. unfold invariant_check in HR. rewrite !andb_true_iff in HR. destruct HR as [[_ H] _].
    unfold term_check in H. rewrite forallb_forall in H. specialize (H a Hin). fold tn in H.
    destruct (arun K tn a []) as [[[p s] l7] l].
    destruct p; try discriminate H. apply andb_true_iff in H. destruct H as [H1 H2].
    apply dstate_eqb_eq in H1. subst s. eauto.
  Qed.

  Lemma inv_start : forall x, In (PLoop, x, false) R.
  Proof.
    intros x. unfold invariant_check in HR. rewrite !andb_true_iff, forallb_forall in HR.
    apply amem_in, HR, all_dstates_in.
  Qed.

  Lemma arun_final : forall n a s, is_final (fst (fst a)) = true -> arun n tn a s = (a, []).
  Proof. intros n a s H. destruct n; cbn [arun]; rewrite H; reflexivity. Qed.

  (* from a member of R the run ends in the target within K + |s| status reads, whatever the schedule s of
     the automatic transitions, and writes harmless controlwords only: one step per schedule entry keeps
     the configuration in R, and once the schedule is used up the transitions fire at once *)
  Lemma arun_invariant : forall s a, In a R ->
    exists l7 l, arun (K + List.length s) tn a s = ((PDone, t, l7), l) /\ forallb (cw_safe t) l = true.
  Proof.
    induction s as [|b s IH]; intros a Hin; cbn [List.length].
    - rewrite Nat.add_0_r. exact (inv_term a Hin).
    - rewrite Nat.add_succ_r. cbn [arun]. destruct (is_final (fst (fst a))) eqn:Hf.
      + destruct (inv_term a Hin) as (l7 & l & H & _). rewrite arun_final in H by exact Hf.
        injection H as -> _. exists l7, []. split; reflexivity.
      + cbn [hd tl]. destruct (inv_closed a b Hin) as [H1 H2].
        destruct (astep tn a b) as [a' cw]. cbn [fst snd] in H1, H2.
        destruct (IH a' H1) as (l7 & l & -> & Hl). exists l7, (ocons cw l). split; [reflexivity|].
        destruct cw; cbn [ocons forallb ocw_safe] in *; [rewrite H2|]; exact Hl.
  Qed.
End Invariant.

Lemma machine_checks : forallb (fun t => invariant_check t (reach t)) (filter commandable all_dstates) = true.
Proof. vm_compute. reflexivity. Qed.

Lemma tpdo_sync : forall d0 d', d_extra d' = d_extra d0 ->
  tpdo_update d0 d' (sw_of (d_st d0) (d_extra d0)) = sw_of (d_st d') (d_extra d').
Proof.
  intros d0 d' He. unfold tpdo_update. destruct (dstate_eqb (d_st d0) (d_st d')) eqn:E; [|reflexivity].
  apply dstate_eqb_eq in E. congruence.
Qed.

Lemma step_pdo_sdo : forall target p d,
  step pdo_ops target p (d, sw_of (d_st d) (d_extra d)) =
  let '(p', d') := step sdo_ops target p d in (p', (d', sw_of (d_st d') (d_extra d'))).
Proof.
  intros target p d.
  destruct (rd_status d) as [d1 v] eqn:Erd.
  assert (He1 : d_extra d1 = d_extra d) by (unfold rd_status in Erd; inversion Erd; reflexivity).
  assert (Hv : v = sw_of (d_st d1) (d_extra d1)) by (unfold rd_status in Erd; inversion Erd; reflexivity).
  subst v.
  destruct p; unfold step; cbn [pdo_ops sdo_ops w_sw w_check w_cw]; try reflexivity;
    rewrite Erd; cbn [fst snd]; rewrite (tpdo_sync d d1 He1); try reflexivity;
    (match goal with |- context [lib_step ?t ?q ?c] => destruct (lib_step t q c) as [p' [c'|]] end;
     [rewrite tpdo_sync by reflexivity|]; reflexivity).
Qed.

Lemma run_pdo_sdo : forall n target p d,
  run pdo_ops n target p (d, sw_of (d_st d) (d_extra d)) =
  let '(p', d') := run sdo_ops n target p d in (p', (d', sw_of (d_st d') (d_extra d'))).
Proof.
  induction n as [|n IH]; intros target p d; cbn [run].
  - destruct (is_final p); reflexivity.
  - destruct (is_final p); [reflexivity|].
    rewrite step_pdo_sdo. destruct (step sdo_ops target p d) as [p1 d1]. apply IH.
Qed.

(* the setter over either transport, and the drive it leaves; the PDO world is the drive with the statusword last
   received by TPDO *)
Definition run_setter (by_pdo : bool) (fuel : nat) (target : string) (d : drive) : pc * drive :=
  if by_pdo then let '(p, (d', _)) := set_state pdo_ops fuel target (d, sw_of (d_st d) (d_extra d)) in (p, d')
  else set_state sdo_ops fuel target d.

Lemma run_setter_sdo : forall by_pdo fuel target d,
  run_setter by_pdo fuel target d = set_state sdo_ops fuel target d.
Proof.
  intros [|] fuel target d; [|reflexivity]. unfold run_setter, set_state.
  rewrite run_pdo_sdo. destruct (run sdo_ops fuel target PLoop d). reflexivity.
Qed.

Lemma commanded_transitions : forall (by_pdo : bool) (x t : dstate) (s : list bool) (extra : Z),
  commandable t = true ->
  let '(p, d) := run_setter by_pdo (K + List.length s) (dstate_name t) (drive_init x s extra) in
  p = PDone /\ d_st d = t /\
  (may_enable t = false -> forall c, In c (d_cws d) -> is_enable_operation c = false).
Proof.
  intros by_pdo x t s extra Ht. rewrite run_setter_sdo. unfold set_state.
  pose proof (run_sdo_abs (K + List.length s) (dstate_name t) PLoop (drive_init x s extra)) as H.
  destruct (run sdo_ops (K + List.length s) (dstate_name t) PLoop (drive_init x s extra)) as [p d].
  cbn [drive_init d_st d_last7 d_sched d_cws] in H.
  pose proof (proj1 (forallb_forall _ _) machine_checks t (proj2 (filter_In _ _ _) (conj (all_dstates_in t) Ht))) as HR.
  destruct (arun_invariant t _ HR s _ (inv_start t _ HR x)) as (l7 & l & E & Hl).
  rewrite E in H. destruct H as [H1 H2]. injection H1 as <- <- _. repeat split.
  intros Hme c Hin. rewrite H2, app_nil_r in Hin. apply in_rev in Hin.
  rewrite forallb_forall in Hl. specialize (Hl c Hin). unfold cw_safe in Hl. rewrite Hme in Hl.
  now destruct (is_enable_operation c).
Qed.

Lemma uncommandable_name : forall t, uncommandable (dstate_name t) = negb (commandable t).
Proof. destruct t; reflexivity. Qed.

Lemma uncommandable_refused : forall (by_pdo : bool) (x t : dstate) (s : list bool) (extra : Z) (n : nat),
  commandable t = false ->
  let first := if hd true s then auto x else x in
  let '(p, d) := run_setter by_pdo (S n) (dstate_name t) (drive_init x s extra) in
  p = (if dstate_eqb first t then PDone else PFail E_VALUE) /\ d_cws d = [] /\ d_reads d = 1 /\ d_st d = first.
Proof.
  intros by_pdo x t s extra n Ht first. rewrite run_setter_sdo. unfold set_state.
  cbn [run is_final]. unfold step. cbn [sdo_ops w_sw]. unfold rd_status.
  cbn [drive_init d_st d_sched d_extra d_last7 d_cws d_trace d_reads].
  assert (Hfire : match s with [] => true | b :: _ => b end = hd true s) by (destruct s; reflexivity).
  rewrite Hfire. fold first. rewrite decode_sw_of. cbn [lib_step].
  rewrite name_eqb, uncommandable_name, Ht. cbn [negb].
  destruct (dstate_eqb first t); (destruct n; cbn [run is_final d_cws d_reads d_st]; repeat split; reflexivity).
Qed.

Lemma land_pow2_testbit : forall s i, 0 <= i -> (Z.land s (2 ^ i) =? 2 ^ i) = Z.testbit s i.
Proof.
  intros s i Hi. rewrite land_pow2 by exact Hi. pose proof (Z.pow_pos_nonneg 2 i eq_refl Hi).
  destruct (Z.testbit s i); [apply Z.eqb_refl|apply Z.eqb_neq; lia].
Qed.

Definition mode_bits (bit : option Z) : Z := match bit with Some i => 2 ^ i | None => 0 end.

Definition mode_entry_check (e : string * (Z * option Z)) : bool :=
  let '(name, (code, bit)) := e in
  match sassoc name OM_SUPPORTED, sassoc name OM_NAME2CODE, zassoc code OM_CODE2NAME with
  | Some b, Some c, Some n => (b =? mode_bits bit) && (c =? code) && String.eqb n name &&
                              match bit with Some i => 0 <=? i | None => true end
  | _, _, _ => false
  end.

Lemma mode_entry : forall name code bit, In (name, (code, bit)) cia402_modes ->
  sassoc name OM_SUPPORTED = Some (mode_bits bit) /\ sassoc name OM_NAME2CODE = Some code /\
  zassoc code OM_CODE2NAME = Some name /\ match bit with Some i => 0 <= i | None => True end.
Proof.
  intros name code bit Hin.
  assert (H : forallb mode_entry_check cia402_modes = true) by (vm_compute; reflexivity).
  rewrite forallb_forall in H. specialize (H _ Hin). unfold mode_entry_check in H.
  destruct (sassoc name OM_SUPPORTED) as [b|]; [|discriminate].
  destruct (sassoc name OM_NAME2CODE) as [c|]; [|discriminate].
  destruct (zassoc code OM_CODE2NAME) as [n|]; [|discriminate].
  repeat (apply andb_true_iff in H; destruct H as [H ?]).
  apply Z.eqb_eq in H. apply String.eqb_eq in H1. apply Z.eqb_eq in H2. subst.
  repeat split. destruct bit; [lia|exact I].
Qed.

Lemma supported_spec : forall name code bit support, In (name, (code, bit)) cia402_modes ->
  is_op_mode_supported name support = Ok (mode_advertised support bit).
Proof.
  intros name code bit support Hin. destruct (mode_entry _ _ _ Hin) as [H1 [_ [_ H4]]].
  unfold is_op_mode_supported. rewrite H1. f_equal. destruct bit as [i|]; cbn [mode_bits mode_advertised].
  - apply land_pow2_testbit. exact H4.
  - rewrite Z.land_0_r. reflexivity.
Qed.

Lemma op_mode_value_spec : forall name code bit support, In (name, (code, bit)) cia402_modes ->
  op_mode_value name support = if mode_advertised support bit then Ok code else Err E_TYPE.
Proof.
  intros name code bit support Hin. unfold op_mode_value.
  rewrite (supported_spec _ _ _ support Hin). cbn [rbind].
  destruct (mode_entry _ _ _ Hin) as [_ [H2 _]]. rewrite H2. reflexivity.
Qed.

Lemma read_display_writes : forall d, m_writes (fst (m_read_display d)) = m_writes d.
Proof. intro d. unfold m_read_display. destruct (m_pending d), (m_wait d); reflexivity. Qed.

Lemma confirm_writes : forall fuel mode d, m_writes (snd (op_mode_confirm fuel mode d)) = m_writes d.
Proof.
  induction fuel as [|f IH]; intros mode d; cbn [op_mode_confirm]; [reflexivity|].
  pose proof (read_display_writes d) as Hw. destruct (m_read_display d) as [d1 code]. cbn [fst] in Hw.
  destruct (op_mode_name code) as [n|k|c]; cbn [snd]; try exact Hw.
  destruct (String.eqb n mode); cbn [snd]; [exact Hw|]. rewrite IH. exact Hw.
Qed.

(* a displayed mode whose code the library knows *)
Definition display_known (code : Z) : Prop := exists n, zassoc code OM_CODE2NAME = Some n.

Lemma confirm_pending : forall w fuel mode code d, (w < fuel)%nat ->
  m_pending d = Some code -> m_wait d = w -> display_known (m_display d) ->
  zassoc code OM_CODE2NAME = Some mode ->
  fst (op_mode_confirm fuel mode d) = Ok tt.
Proof.
  induction w as [|w IH]; intros fuel mode code d Hf Hp Hw Hd Hc;
    (destruct fuel as [|f]; [lia|]); cbn [op_mode_confirm]; unfold m_read_display; rewrite Hp, Hw.
  - unfold op_mode_name. rewrite Hc, String.eqb_refl. reflexivity.
  - destruct Hd as [n Hn]. unfold op_mode_name. rewrite Hn.
    destruct (String.eqb n mode); [reflexivity|].
    apply (IH f mode code); cbn; try reflexivity; try lia; try exact Hc. exists n. exact Hn.
Qed.

Lemma op_mode_rules : forall name code bit support display lag,
  In (name, (code, bit)) cia402_modes ->
  let '(r, d) := set_op_mode (S lag) name (mdrive_init support display lag) in
  if mode_advertised support bit
  then m_writes d = [code] /\ (display_known display -> r = Ok tt)
  else r = Err E_TYPE /\ m_writes d = [].
Proof.
  intros name code bit support display lag Hin. unfold set_op_mode.
  cbn [mdrive_init m_support]. rewrite (op_mode_value_spec _ _ _ support Hin).
  destruct (mode_entry _ _ _ Hin) as [_ [_ [H3 _]]].
  destruct (mode_advertised support bit); [|split; reflexivity].
  pose proof (confirm_writes (S lag) name (m_write (mdrive_init support display lag) code)) as Hw.
  destruct (op_mode_confirm (S lag) name (m_write (mdrive_init support display lag) code)) as [r d] eqn:E.
  cbn [snd] in Hw. split.
  - rewrite Hw. unfold m_write, mdrive_init. cbn. destruct lag; reflexivity.
  - intro Hd. change r with (fst (r, d)). rewrite <- E. destruct lag as [|l].
    + cbn [op_mode_confirm m_write mdrive_init m_lag]. unfold m_read_display. cbn.
      unfold op_mode_name. rewrite H3, String.eqb_refl. reflexivity.
    + apply (confirm_pending (S l) (S (S l)) name code); cbn; try reflexivity; try lia; assumption.
Qed.
