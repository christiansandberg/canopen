(* Proofs about Model/Crc.v: the fold law that makes the chunk-wise CrcXmodem.process calls of the
   block streams equal to the CRC of the whole payload; linearity over xor, by which a corrupted byte
   shows in the CRC as a non-zero register difference pushed through the rest of the data. *)
From Coq Require Import ZArith List Lia.
From CV Require Import Base.Bits Model.Crc Model.RefBlockServer.
Import ListNotations.
Open Scope Z_scope.

Lemma crc_from_app c a b : crc_from c (a ++ b) = crc_from (crc_from c a) b.
Proof. unfold crc_from. apply fold_left_app. Qed.

Lemma crc16_app a b : crc16 (a ++ b) = crc_from (crc16 a) b.
Proof. apply crc_from_app. Qed.

(* any sequence of process() calls over the pieces of a payload gives the CRC of the payload *)
Lemma crc_from_concat c chunks : fold_left crc_from chunks c = crc_from c (concat chunks).
Proof.
  revert c. induction chunks as [|x r IH]; intros c; cbn [fold_left concat]; [reflexivity|].
  rewrite IH, crc_from_app. reflexivity.
Qed.

Lemma crc_from_nil c : crc_from c [] = c.
Proof. reflexivity. Qed.

Lemma crc_from_cons c b r : crc_from c (b :: r) = crc_from (crc_byte c b) r.
Proof. reflexivity. Qed.

(* an equation between xors of integers, decided bit by bit *)
Ltac xor_bits := apply Z.bits_inj'; intros n Hn; rewrite ?Z.lxor_spec;
  repeat match goal with |- context [Z.testbit ?a n] => destruct (Z.testbit a n) end; reflexivity.

Lemma crc_bit_lxor x y : crc_bit (Z.lxor x y) = Z.lxor (crc_bit x) (crc_bit y).
Proof.
  unfold crc_bit. rewrite Z.lxor_spec, Z.shiftl_lxor, land_lxor_distr.
  set (A := Z.land (Z.shiftl x 1) 65535). set (B := Z.land (Z.shiftl y 1) 65535).
  destruct (Z.testbit x 15), (Z.testbit y 15); cbn [xorb]; xor_bits.
Qed.

Definition bit8 (c : Z) : Z := crc_bit (crc_bit (crc_bit (crc_bit (crc_bit (crc_bit (crc_bit (crc_bit c))))))).

Lemma bit8_lxor x y : bit8 (Z.lxor x y) = Z.lxor (bit8 x) (bit8 y).
Proof. unfold bit8. now rewrite !crc_bit_lxor. Qed.

(* unfolded first: left to itself the conversion test opens the eight nested [crc_bit] on both sides *)
Lemma crc_byte_bit8 c b : crc_byte c b = bit8 (Z.lxor c (Z.shiftl b 8)).
Proof. unfold crc_byte, bit8. reflexivity. Qed.

(* a register difference d propagates through one byte as bit8 d *)
Lemma crc_byte_diff c d b : crc_byte (Z.lxor c d) b = Z.lxor (crc_byte c b) (bit8 d).
Proof.
  rewrite !crc_byte_bit8, <- bit8_lxor. f_equal. xor_bits.
Qed.

Lemma crc_byte_flip c b m : crc_byte c (Z.lxor b m) = Z.lxor (crc_byte c b) (bit8 (Z.shiftl m 8)).
Proof.
  rewrite !crc_byte_bit8, <- bit8_lxor, Z.shiftl_lxor. f_equal. xor_bits.
Qed.

(* [f] applied n times, innermost first.  Over a variable [f]: with [bit8] in its place the conversion test
   behind [iter_in_S] would try to identify [bit8 d] with [d] first, which is slow to fail. *)
Fixpoint iter_in {A} (f : A -> A) (n : nat) (x : A) : A := match n with O => x | S n' => iter_in f n' (f x) end.

Lemma iter_in_S {A} (f : A -> A) n x : iter_in f (S n) x = iter_in f n (f x).
Proof. reflexivity. Qed.

Lemma iter_in_inv {A} (f : A -> A) (Q : A -> Prop) : (forall x, Q x -> Q (f x)) -> forall n x, Q x -> Q (iter_in f n x).
Proof. intros H. induction n as [|n IH]; intros x Hx; [exact Hx|]. rewrite iter_in_S. apply IH, H, Hx. Qed.

Lemma crc_from_diff : forall data c d, crc_from (Z.lxor c d) data = Z.lxor (crc_from c data) (iter_in bit8 (length data) d).
Proof.
  induction data as [|b r IH]; intros c d; [reflexivity|].
  rewrite !crc_from_cons, crc_byte_diff. cbn [length]. rewrite iter_in_S. apply IH.
Qed.

Definition r16 (c : Z) : Prop := 0 <= c < 65536.

Lemma land_r16 x : r16 (Z.land x 65535).
Proof. unfold r16. change 65535 with (Z.ones 16). rewrite Z.land_ones by lia. apply Z.mod_pos_bound. reflexivity. Qed.

Lemma lxor_r16 a b : r16 a -> r16 b -> r16 (Z.lxor a b).
Proof.
  unfold r16. intros Ha Hb. split; [apply Z.lxor_nonneg; lia|].
  destruct (Z.eq_dec (Z.lxor a b) 0) as [E|E]; [lia|].
  assert (H0 : 0 < Z.lxor a b) by (pose proof (proj2 (Z.lxor_nonneg a b) ltac:(lia)); lia).
  apply (Z.log2_lt_pow2 _ 16 H0).
  pose proof (Z.log2_lxor a b ltac:(lia) ltac:(lia)) as Hl.
  assert (La : Z.log2 a < 16) by (destruct (Z.eq_dec a 0); [subst; cbn; lia|apply Z.log2_lt_pow2; lia]).
  assert (Lb : Z.log2 b < 16) by (destruct (Z.eq_dec b 0); [subst; cbn; lia|apply Z.log2_lt_pow2; lia]).
  lia.
Qed.

Lemma crc_bit_r16 c : r16 (crc_bit c).
Proof.
  unfold crc_bit. destruct (Z.testbit c 15); [|apply land_r16].
  apply lxor_r16; [apply land_r16|unfold r16; lia].
Qed.

Lemma testbit15 c : r16 c -> Z.testbit c 15 = (32768 <=? c).
Proof.
  unfold r16. intros H. rewrite Z.testbit_eqb by lia. change (2 ^ 15) with 32768.
  destruct (32768 <=? c) eqn:E.
  - replace (c / 32768) with 1 by (Z.div_mod_to_equations; lia). reflexivity.
  - rewrite Z.div_small by lia. reflexivity.
Qed.

(* the constant term of the polynomial is 1: shifting never annihilates a non-zero register *)
Lemma crc_bit_nonzero c : r16 c -> c <> 0 -> crc_bit c <> 0.
Proof.
  intros Hr Hc. unfold crc_bit. rewrite (testbit15 c Hr). unfold r16 in Hr.
  change 65535 with (Z.ones 16). rewrite Z.land_ones by lia. rewrite Z.shiftl_mul_pow2 by lia. change (2 ^ 1) with 2. change (2 ^ 16) with 65536.
  destruct (32768 <=? c) eqn:E.
  - (* bit 0 of the result is 1 *)
    intros H. apply (f_equal (fun z => Z.testbit z 0)) in H. rewrite Z.lxor_spec in H.
    rewrite !Z.bit0_odd in H. replace (Z.odd (c * 2 mod 65536)) with false in H.
    2:{ symmetry. rewrite <- Z.negb_even. replace (Z.even (c * 2 mod 65536)) with true; [reflexivity|].
        symmetry. apply Z.even_spec. exists (c - 32768). Z.div_mod_to_equations. lia. }
    cbn in H. discriminate.
  - Z.div_mod_to_equations. lia.
Qed.

Lemma bit8_r16 c : r16 (bit8 c).
Proof. unfold bit8. apply crc_bit_r16. Qed.

Lemma bit8_nonzero c : r16 c -> c <> 0 -> bit8 c <> 0.
Proof.
  intros Hr Hc. unfold bit8.
  repeat (apply crc_bit_nonzero; [apply crc_bit_r16|]).
  apply crc_bit_nonzero; assumption.
Qed.

Lemma iter_bit8_nonzero n d : r16 d -> d <> 0 -> iter_in bit8 n d <> 0.
Proof.
  intros Hr Hd. apply (iter_in_inv bit8 (fun d => r16 d /\ d <> 0)); [|split; assumption].
  intros x [Hx Hx0]. split; [apply bit8_r16|apply bit8_nonzero; assumption].
Qed.

Lemma lxor_ne x d : d <> 0 -> Z.lxor x d <> x.
Proof.
  intros Hd H. apply Hd.
  assert (E : d = Z.lxor x (Z.lxor x d)) by (rewrite <- Z.lxor_assoc, Z.lxor_nilpotent, Z.lxor_0_l; reflexivity).
  rewrite H, Z.lxor_nilpotent in E. exact E.
Qed.

Lemma crc_single_byte : forall data c i m,
  (i < length data)%nat -> 0 < m < 256 ->
  crc_from c (xor_at data i m) <> crc_from c data.
Proof.
  induction data as [|b r IH]; intros c i m Hi Hm; [cbn in Hi; lia|].
  destruct i as [|i'].
  - cbn [xor_at]. rewrite !crc_from_cons, crc_byte_flip, crc_from_diff. apply lxor_ne.
    apply iter_bit8_nonzero; [apply bit8_r16|].
    apply bit8_nonzero; [unfold r16|]; rewrite Z.shiftl_mul_pow2 by lia; change (2 ^ 8) with 256; lia.
  - cbn [xor_at]. rewrite !crc_from_cons. apply IH; [cbn in Hi; lia|exact Hm].
Qed.

Lemma crc_single_bit : forall data c i k,
  (i < length data)%nat -> 0 <= k < 8 ->
  crc_from c (xor_at data i (2 ^ k)) <> crc_from c data.
Proof.
  intros data c i k Hi Hk. apply crc_single_byte; [exact Hi|].
  split; [apply Z.pow_pos_nonneg; lia|]. change 256 with (2 ^ 8). apply Z.pow_lt_mono_r; lia.
Qed.
