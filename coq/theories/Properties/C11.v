(* C11 - NMT commands, states and heartbeats follow the CiA 301 state machine.
   Statements only: each theorem is [exact] of a lemma of Proofs/{Nmt_proofs.v, Src_eq_c11.v};
   the examples are concrete instances.
   Model: Model/Nmt.v (NmtBase / NmtMaster / NmtSlave of canopen/nmt.py as wired by RemoteNode and
   LocalNode on one synchronous bus), reference: Model/RefNmt.v (CiA 301 NMT machine, hand-written),
   tables: Gen/NmtTables.v (NMT_STATES, NMT_COMMANDS, COMMAND_TO_STATE) regenerated from /repo on every run.
   System: slave = LocalNode own, master = RemoteNode own, a RemoteNode oth, the broadcast master (id 0).
   [lp] = whether the bus hands a sent frame back to the subscribers of the sending Network: [true] is
   the simulated synchronous bus of the property (master and slave objects on one bus), [false] is a
   master whose own frames only leave (python-can default). *)
From Coq Require Import ZArith List Bool String.
From CV Require Import Base.Val Base.Tys Gen.NmtTables Model.RefNmt Model.Nmt Proofs.Nmt_proofs Gen.SrcC11 Proofs.Src_eq_c11.
Import ListNotations.
Open Scope string_scope.
Open Scope list_scope.
Open Scope Z_scope.

(* A master sends exactly the frame [command specifier; node id] on CAN id 0, nothing else, and
   raises nothing: for every code 0..255, every master object (own node, other node, broadcast),
   in every state of the system (in particular after any history of heartbeats). *)
Theorem C11_master_frame : forall lp own oth w m code, 0 <= code < 256 ->
  snd (step lp own oth w (ECmd m code)) = ([(0, [code; mid own oth m])], [], None).
Proof. exact master_frame. Qed.

(* the same through the state setter, for each of the eight documented names *)
Theorem C11_master_frame_by_name : forall lp own oth w m n cs, In (n, cs) ref_names ->
  0 <= cs < 256 /\
  snd (step lp own oth w (EName m (str_codes n))) = ([(0, [cs; mid own oth m])], [], None).
Proof. exact master_frame_name. Qed.

(* an invalid state name is rejected with ValueError; nothing is sent, nothing changes
   (master objects and slave) *)
Theorem C11_invalid_name_rejected : forall lp own oth w name,
  (forall n cs, In (n, cs) ref_names -> name <> str_codes n) ->
  (forall m, step lp own oth w (EName m name) = (w, ([], [], Some E_VALUE))) /\
  step lp own oth w (ESName name) = (w, ([], [], Some E_VALUE)).
Proof. exact invalid_name_rejected. Qed.

(* For every list of received frames on CAN id 0 (any length, any content, any addressee) the
   state of the slave is the fold of the hand-written CiA 301 transition function over the
   commands addressed to its own id or to 0; a malformed frame changes nothing. *)
Theorem C11_slave_follows_spec : forall own frames s,
  rx_fold own (st_code s) frames = st_code (fold_left (ref_frame own) frames s).
Proof. exact slave_follows_spec. Qed.

(* [rx_fold] is what the slave inside the simulated system does with a frame *)
Theorem C11_slave_in_system : forall own oth w data,
  w_s (fst (deliver0 own oth w data)) = rx_fold own (w_s w) [data].
Proof. exact deliver0_is_on_command. Qed.

(* commands for other nodes change nothing (any node object, any state number) *)
Theorem C11_other_ids_noop : forall own frames st,
  Forall (fun d => match d with _ :: nid :: _ => nid <> own /\ nid <> 0 | _ => True end) frames ->
  rx_fold own st frames = st.
Proof. exact other_ids_noop. Qed.

(* The whole system, for every history of events (commands through the three master objects by
   code or by name, foreign frames, heartbeats, local state assignments of the slave by code or
   by name, 0x1017 writes, heartbeat ticks): the slave's state, and the name it reports, are
   those of the CiA 301 machine. *)
Theorem C11_system_follows_spec : forall own oth evs w s, w_s w = st_code s ->
  w_s (run true own oth w evs) = st_code (ref_slave_run own oth s evs) /\
  state_name (w_s (run true own oth w evs)) = str_codes (st_name (ref_slave_run own oth s evs)).
Proof. exact system_follows_spec. Qed.

(* After every prefix of every history of commands (sent by any master object, by code or by
   name, or by a foreign master) the master's view of the node equals the slave's state. *)
Theorem C11_master_slave_agree : forall own oth evs w k, Forall master_driven evs -> w_m w = w_s w ->
  let w' := run true own oth w (firstn k evs) in
  w_m w' = w_s w' /\ state_name (w_m w') = state_name (w_s w').
Proof. exact master_slave_agree. Qed.

(* The sender's own view after a command is the state the CiA 301 machine assigns to that command,
   with or without loop-back, whatever the view was before (in particular an undefined state
   number taken from a heartbeat). *)
Theorem C11_master_assumes_commanded : forall lp own oth w code, 0 <= code < 256 ->
  w_m (fst (step lp own oth w (ECmd MOwn code))) = tbl (w_m w) code /\
  (forall s, w_m w = st_code s -> w_m (fst (step lp own oth w (ECmd MOwn code))) = st_code (cs_step s code)) /\
  (forall st, zassoc code COMMAND_TO_STATE = Some st -> w_m (fst (step lp own oth w (ECmd MOwn code))) = st).
Proof. exact master_assumes_commanded. Qed.

(* Heartbeat decoding, all 256 bytes: the state is the low seven bits, the toggle bit is ignored
   (same result, same callback argument for b xor 0x80), a boot-up message (state field 0) is
   reported as PRE-OPERATIONAL, the defined state bytes get their names, and the slave is not
   touched.  No evaluation over the bytes: on_heartbeat masks with 0x7F, which drops bit 7 of any
   integer, and the names are those NMT_STATES gives the CiA 301 state bytes. *)
Theorem C11_heartbeat_decoding : forall lp own oth w b rest, 0 <= b < 256 ->
  let w' := fst (step lp own oth w (EHb (b :: rest))) in
  w_m w' = ref_hb_code b /\
  w_m w' = (if b mod 128 =? 0 then 127 else b mod 128) /\
  step lp own oth w (EHb (Z.lxor b 128 :: rest)) = step lp own oth w (EHb (b :: rest)) /\
  w_s w' = w_s w /\
  (b mod 128 = 0 -> state_name (w_m w') = str_codes "PRE-OPERATIONAL") /\
  (forall s, b mod 128 = st_code s -> s <> Initialising -> state_name (w_m w') = str_codes (st_name s)).
Proof. exact heartbeat_decoding. Qed.

(* What the slave reports: after any history from the initial system, if the heartbeat service
   runs, a tick puts exactly [state byte of the CiA 301 machine] on 0x700 + id and the master then
   reports that state (INITIALISING has state byte 0 = boot-up: reported as PRE-OPERATIONAL). *)
Theorem C11_heartbeat_reports_slave : forall own oth od0 evs p d,
  let w := run true own oth (init_world od0) evs in
  let s := ref_slave_run own oth Initialising evs in
  w_task w = Some (d, p) ->
  snd (step true own oth w ETick) = ([(1792 + own, [st_code s])], [st_code s], None) /\
  state_name (w_m (fst (step true own oth w ETick))) =
    str_codes (st_name (match s with Initialising => PreOperational | _ => s end)).
Proof. exact heartbeat_reports_slave. Qed.

(* FULL STATEMENT (property text): "Waiting for a heartbeat or boot-up returns on the matching
   message and fails with the NMT error when none arrives."  Proved below for the SCAN MODEL only:
   what arrives during each Condition.wait() call, and whether the deadline has passed when a loop
   iteration of wait_for_bootup starts, are inputs.  Missing: that threading.Condition wakes the
   waiter exactly when on_heartbeat notifies, and the relation between time.time() and the
   timeout (runtime; exercised with real threads by the harness, oracle only). *)
Theorem C11_wait_heartbeat_partial : forall m arrivals,
  (arrivals = [] -> wait_for_heartbeat m arrivals = ((fst m, None), Err E_NMT)) /\
  (forall l b, arrivals = l ++ [b] ->
     wait_for_heartbeat m arrivals =
       ((ref_hb_code b, Some (b mod 128)), Ok (state_name (ref_hb_code b)))).
Proof. exact wait_heartbeat_spec. Qed.

(* wait_for_bootup over loop iterations (late?, messages received during the wait): it returns
   on the first wake-up whose last message is a boot-up message, provided no earlier iteration
   started after the deadline, and then the master reports PRE-OPERATIONAL (127); it fails with
   NmtError in the first iteration that starts after the deadline; it never returns otherwise. *)
Theorem C11_wait_bootup_partial : forall pre m,
  Forall quiet pre ->
  (forall arr post, woken_by_bootup arr = true ->
     snd (wait_for_bootup m (pre ++ (false, arr) :: post)) = Ok tt /\
     fst (fst (wait_for_bootup m (pre ++ (false, arr) :: post))) = 127) /\
  (forall arr post, snd (wait_for_bootup m (pre ++ (true, arr) :: post)) = Err E_NMT) /\
  snd (wait_for_bootup m pre) = Err E_FUEL.
Proof. exact wait_bootup_spec. Qed.

(* a history with a broadcast, a command for another node, a reset by name, local assignments,
   a running heartbeat and an undefined heartbeat state before a command *)
Definition nv_history : list event :=
  [ECmd MOwn 1; ECmd MOth 2; ECmd MBc 128; EHb [203]; EName MOwn (str_codes "RESET");
   ESName (str_codes "INITIALISING"); ESetHb 100; ESName (str_codes "PRE-OPERATIONAL"); ERaw [1; 5; 9]; ERaw [2; 6]].

Example C11_nv_system :
  ref_slave_run 5 6 Initialising nv_history = Operational /\
  w_s (run true 5 6 (init_world 0) nv_history) = 5 /\
  w_task (run true 5 6 (init_world 0) nv_history) = Some ([5], 100) /\
  snd (step true 5 6 (run true 5 6 (init_world 0) [EHb [203]]) (ECmd MOwn 129)) = ([(0, [129; 5])], [], None) /\
  w_m (run false 5 6 (init_world 0) [EHb [203]]) = 75 /\
  w_m (run false 5 6 (init_world 0) [EHb [203]; ECmd MOwn 1]) = 5 /\
  In ("RESET COMMUNICATION", 130) ref_names /\
  (forall n cs, In (n, cs) ref_names -> str_codes "PRE_OPERATIONAL" <> str_codes n).
Proof.
  repeat split; try (vm_compute; reflexivity).
  - cbn. tauto.
  - apply ref_name_none. vm_compute. reflexivity.
Qed.

Example C11_nv_agree :
  Forall master_driven [ECmd MOwn 1; ECmd MBc 2; EName MOwn (str_codes "RESET"); ERaw [128; 0]; ECmd MOth 1] /\
  w_m (run true 5 6 (init_world 0) [ECmd MOwn 1; ECmd MBc 2]) = 4 /\
  Forall (fun d => match d with _ :: nid :: _ => nid <> 5 /\ nid <> 0 | _ => True end) [[1; 6]; [129; 7; 0]; [2]].
Proof. repeat constructor; try discriminate. Qed.

Example C11_nv_waits :
  Forall quiet [(false, []); (false, [5]); (false, [0; 127])] /\
  woken_by_bootup [5; 128] = true /\
  snd (wait_for_bootup (0, None) [(false, [5]); (false, [0; 127]); (false, [5; 128]); (true, [])]) = Ok tt /\
  snd (wait_for_bootup (0, None) [(false, [5]); (true, [0])]) = Err E_NMT.
Proof. vm_compute. repeat split; repeat constructor. Qed.

(* Tie to the source text: NmtMaster.on_heartbeat as translated from the CURRENT source by tools/py2coq.py
   (Gen/SrcC11.v, regenerated on every run) computes the model's new (_state, _state_received) and callback argument. *)
Theorem C11_source_heartbeat_is_model : forall m b rest,
  on_heartbeat m (b :: rest) =
  Ok ((fst (src_nmt_heartbeat b), Some (snd (src_nmt_heartbeat b))), snd (src_nmt_heartbeat b)).
Proof. exact src_nmt_heartbeat_eq. Qed.

Print Assumptions C11_master_frame.
Print Assumptions C11_master_frame_by_name.
Print Assumptions C11_invalid_name_rejected.
Print Assumptions C11_slave_follows_spec.
Print Assumptions C11_slave_in_system.
Print Assumptions C11_other_ids_noop.
Print Assumptions C11_system_follows_spec.
Print Assumptions C11_master_slave_agree.
Print Assumptions C11_master_assumes_commanded.
Print Assumptions C11_heartbeat_decoding.
Print Assumptions C11_heartbeat_reports_slave.
Print Assumptions C11_wait_heartbeat_partial.
Print Assumptions C11_wait_bootup_partial.
Print Assumptions C11_source_heartbeat_is_model.
