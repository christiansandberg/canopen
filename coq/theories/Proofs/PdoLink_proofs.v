(* C15: reception, transmission and callbacks of PDO maps on a network (Model/PdoLink.v).
   deliver walks the subscriber table; for a table without repeated entries (wf_world, kept by every step) its
   result is given map by map and callback by callback (deliver_spec), and the reception theorems are read off
   that. pdo_end_to_end joins it with pdo_read_after_write of Pdo_proofs.v. *)
From Coq Require Import ZArith List Bool.
From CV Require Import Base.Val Base.Bytes Model.Codec Model.Pdo Model.PdoLink Proofs.Pdo_proofs.
Import ListNotations.
Open Scope Z_scope.

Definition accepts (m : pmap) (c : Z) : bool := (c =? m_cob m) && negb (m_task m).
Definition recv (m : pmap) (c : Z) (d : list Z) (ts : Z) : pmap := fst (on_message m c d ts).

Lemma recv_not_accepted m c d ts : accepts m c = false -> recv m c d ts = m.
Proof. unfold recv, on_message, accepts. intros ->. reflexivity. Qed.

Lemma recv_accepted m c d ts : accepts m c = true ->
  let m' := recv m c d ts in
  m_data m' = d /\ m_ts m' = Some ts /\ m_received m' = true /\
  m_period m' = match m_ts m with Some old => Some (ts - old) | None => m_period m end /\
  m_cob m' = m_cob m /\ m_layout m' = m_layout m /\ m_cbs m' = m_cbs m /\ m_task m' = m_task m /\
  m_enabled m' = m_enabled m /\ m_rtr m' = m_rtr m.
Proof. unfold recv, on_message, accepts. intros ->. cbn. repeat split; reflexivity. Qed.

Lemma cbs_invoked m c d ts : snd (on_message m c d ts) = if accepts m c then m_cbs m else [].
Proof. unfold on_message, accepts. destruct ((c =? m_cob m) && negb (m_task m)); reflexivity. Qed.

Lemma upd_length {A} (l : list A) k x : length (upd l k x) = length l.
Proof. revert k. induction l as [|y r IH]; intros [|k]; cbn; auto. Qed.

Lemma nth_upd_same {A} (l : list A) k x m : nth_error l k = Some m -> nth_error (upd l k x) k = Some x.
Proof. revert k. induction l as [|y r IH]; intros [|k] H; cbn in *; try discriminate; auto. Qed.

Lemma nth_upd_other {A} (l : list A) k j x : j <> k -> nth_error (upd l k x) j = nth_error l j.
Proof.
  revert k j. induction l as [|y r IH]; intros [|k] [|j] H; cbn; try reflexivity; try congruence.
  apply IH. congruence.
Qed.

Lemma has_sub_In subs c k : has_sub subs c k = true <-> In (c, k) subs.
Proof.
  induction subs as [|[c' k'] r IH]; cbn; [split; [discriminate|tauto]|].
  rewrite orb_true_iff, andb_true_iff, IH, Z.eqb_eq, Nat.eqb_eq. split.
  - intros [[-> ->]|H]; auto.
  - intros [H|H]; [injection H as -> ->; auto|auto].
Qed.

Lemma flat_map_ext_in_l {A B} (f g : A -> list B) l : (forall a, In a l -> f a = g a) -> flat_map f l = flat_map g l.
Proof.
  induction l as [|x r IH]; intros H; cbn; [reflexivity|].
  rewrite (H x (or_introl eq_refl)), IH; [reflexivity|]. intros a Ha. apply H. now right.
Qed.

Definition sub_log (maps : list pmap) (c : Z) (d : list Z) (ts : Z) (s : Z * nat) : list (nat * Z) :=
  let '(c0, k) := s in
  if c0 =? c then
    match nth_error maps k with
    | Some m => map (fun cb => (k, cb)) (if accepts m c then m_cbs m else [])
    | None => []
    end
  else [].

(* a table without repeated handlers: each subscribed map sees the frame once, and its callbacks
   are logged in subscription order *)
Lemma deliver_spec subs : NoDup subs -> forall maps c d ts,
  (forall j, nth_error (fst (deliver maps subs c d ts)) j =
             option_map (fun m => if has_sub subs c j then recv m c d ts else m) (nth_error maps j)) /\
  snd (deliver maps subs c d ts) = flat_map (sub_log maps c d ts) subs.
Proof.
  induction 1 as [|[c0 k] r Hnin Hnd IH]; intros maps c d ts; cbn [deliver has_sub flat_map sub_log].
  { cbn [fst snd]. split; [intros j; now destruct (nth_error maps j)|reflexivity]. }
  rewrite (Z.eqb_sym c c0). destruct (c0 =? c) eqn:Ec; [|apply IH].
  apply Z.eqb_eq in Ec. subst c0. destruct (nth_error maps k) as [m|] eqn:Hk.
  - pose proof (cbs_invoked m c d ts) as Hc. unfold recv in IH |- *.
    destruct (on_message m c d ts) as [m1 cbs] eqn:Hom. cbn [fst snd] in *. subst cbs.
    destruct (IH (upd maps k m1) c d ts) as [IHm IHl].
    destruct (deliver (upd maps k m1) r c d ts) as [maps' log]. cbn [fst snd] in *. split.
    + intros j. rewrite IHm. destruct (Nat.eqb_spec j k) as [->|Hjk]; cbn [andb orb].
      * rewrite (nth_upd_same maps k m1 m Hk), Hk. cbn [option_map]. rewrite Hom.
        now replace (has_sub r c k) with false
          by (symmetry; apply not_true_iff_false; rewrite has_sub_In; exact Hnin).
      * now rewrite nth_upd_other by assumption.
    + rewrite IHl. f_equal. apply flat_map_ext_in_l. intros [c1 k1] Hin. unfold sub_log.
      destruct (c1 =? c) eqn:E1; [|reflexivity]. apply Z.eqb_eq in E1. subst c1.
      rewrite nth_upd_other; [reflexivity|]. intros ->. contradiction.
  - destruct (IH maps c d ts) as [IHm IHl]. split; [|exact IHl].
    intros j. rewrite IHm. destruct (Nat.eqb_spec j k) as [->|Hjk]; [now rewrite Hk|reflexivity].
Qed.

Definition wf_world (w : world) : Prop := NoDup (w_subs w).

Lemma subscribe_keeps_wf w k : wf_world w -> wf_world (fst (step w (LSubscribe k))).
Proof.
  unfold wf_world, step, with_map. intros H. destruct (nth_error (w_maps w) k) as [m|]; [|exact H].
  destruct (m_enabled m && negb (has_sub (w_subs w) (m_cob m) k)) eqn:E; [|exact H].
  cbn. apply andb_prop in E as [_ E]. rewrite negb_true_iff in E.
  apply NoDup_snoc; [exact H|]. intros Hx. apply has_sub_In in Hx. congruence.
Qed.

Lemma step_wf w op : wf_world w -> wf_world (fst (step w op)).
Proof.
  intros H. destruct op; try (apply subscribe_keeps_wf; exact H);
    unfold wf_world, step, with_map, put, arrive in *;
    repeat match goal with
           | |- context [match ?x with _ => _ end] => destruct x
           | |- context [if ?x then _ else _] => destruct x
           end; cbn; exact H.
Qed.

Theorem wf_preserved ops : forall w, wf_world w -> wf_world (fst (run_steps w ops)).
Proof.
  induction ops as [|op r IH]; intros w H; cbn [run_steps]; [exact H|].
  pose proof (step_wf w op H) as H1. destruct (step w op) as [w1 v]. cbn [fst] in H1.
  specialize (IH w1 H1). destruct (run_steps w1 r). exact IH.
Qed.

Lemma arrive_frame w c d ts : w_sent (arrive w c d ts) = w_sent w /\ w_subs (arrive w c d ts) = w_subs w.
Proof. unfold arrive. destruct (deliver (w_maps w) (w_subs w) c d ts). split; reflexivity. Qed.

Lemma arrive_spec w c d ts : wf_world w ->
  let w' := arrive w c d ts in
  (forall j, nth_error (w_maps w') j =
             option_map (fun m => if has_sub (w_subs w) c j then recv m c d ts else m) (nth_error (w_maps w) j)) /\
  w_cblog w' = w_cblog w ++ flat_map (sub_log (w_maps w) c d ts) (w_subs w).
Proof.
  intros H. unfold arrive. destruct (deliver_spec (w_subs w) H (w_maps w) c d ts) as [Hm Hl].
  destruct (deliver (w_maps w) (w_subs w) c d ts) as [maps' log]. cbn [fst snd] in *. cbn.
  split; [exact Hm|now rewrite Hl].
Qed.

(* a received frame updates only the maps subscribed to its COB-ID (and configured for it, and not
   transmitting themselves); these take the frame's data and timestamp *)
Theorem reception_updates_exactly_subscribers w c d ts j m : wf_world w ->
  nth_error (w_maps w) j = Some m ->
  let w' := arrive w c d ts in
  (has_sub (w_subs w) c j && accepts m c = false -> nth_error (w_maps w') j = Some m) /\
  (has_sub (w_subs w) c j && accepts m c = true ->
     exists m', nth_error (w_maps w') j = Some m' /\ m_data m' = d /\ m_ts m' = Some ts /\
                m_received m' = true /\ m_layout m' = m_layout m /\ m_cob m' = m_cob m).
Proof.
  intros H Hj. destruct (arrive_spec w c d ts H) as (Hm & _). cbn zeta. rewrite Hm, Hj. cbn [option_map].
  split; intros Hc.
  - destruct (has_sub (w_subs w) c j); [|reflexivity]. cbn in Hc. now rewrite recv_not_accepted.
  - apply andb_prop in Hc as [Hs Ha]. rewrite Hs. eexists. split; [reflexivity|].
    destruct (recv_accepted m c d ts Ha) as (A & B & C & _ & E & F & _). auto.
Qed.

(* every callback of every updated map is invoked exactly once, in subscription and registration order *)
Theorem reception_callbacks w c d ts : wf_world w ->
  w_cblog (arrive w c d ts) = w_cblog w ++ flat_map (sub_log (w_maps w) c d ts) (w_subs w).
Proof. intros H. apply (arrive_spec w c d ts H). Qed.

(* transmission sends exactly the map's COB-ID and current data *)
Theorem transmit_sends w k ts m : nth_error (w_maps w) k = Some m -> wf_world w ->
  w_sent (fst (step w (LTransmit k ts))) = w_sent w ++ [(m_cob m, m_data m, false)].
Proof.
  intros Hk _. unfold step, with_map. rewrite Hk. apply arrive_frame.
Qed.

(* a remote request is sent only for an enabled map that allows RTR *)
Theorem rtr_rule w k m : nth_error (w_maps w) k = Some m ->
  w_sent (fst (step w (LRtr k))) =
  if m_enabled m && m_rtr m then w_sent w ++ [(m_cob m, [], true)] else w_sent w.
Proof. intros Hk. unfold step, with_map. rewrite Hk. destruct (m_enabled m && m_rtr m); reflexivity. Qed.

Theorem pdo_end_to_end w kp kc var v ts mp mc e off ft :
  wf_world w -> kp <> kc ->
  nth_error (w_maps w) kp = Some mp -> nth_error (w_maps w) kc = Some mc ->
  m_layout mc = m_layout mp ->
  nth_error (m_layout mp) var = Some e -> nth_error (offsets (m_layout mp)) var = Some off ->
  entry_is (e_dt e) (e_len e) ft -> fits ft v ->
  bytes_ok (m_data mp) -> 0 <= off -> off + e_len e <= 8 * zlen (m_data mp) ->
  has_sub (w_subs w) (m_cob mp) kc = true -> accepts mc (m_cob mp) = true ->
  let '(w1, r1) := step w (LWrite kp var (write_value ft v)) in
  let '(w2, r2) := step w1 (LTransmit kp ts) in
  let '(w3, r3) := step w2 (LRead kc var) in
  r1 = VNone /\ r2 = VNone /\
  r3 = pyval_val (field_value ft (e_len e) (v mod 2 ^ e_len e)) /\
  exists mc', nth_error (w_maps w3) kc = Some mc' /\ m_ts mc' = Some ts /\ m_received mc' = true.
Proof.
  intros H Hne Hp Hc Hlay He Hoff Hent Hfit Hok Ho Hin Hsub Hacc.
  destruct (pdo_read_after_write (m_data mp) (e_dt e) off (e_len e) ft v Hok Hent Hfit Ho Hin) as (f' & Hw & Hr).
  cbn [step]. unfold with_map at 1. rewrite Hp, He, Hoff, Hw.
  set (w1 := put w kp (set_data mp f')).
  assert (H1 : wf_world w1) by exact H.
  assert (Hp1 : nth_error (w_maps w1) kp = Some (set_data mp f'))
    by (unfold w1, put; cbn; eapply nth_upd_same; exact Hp).
  assert (Hc1 : nth_error (w_maps w1) kc = Some mc)
    by (unfold w1, put; cbn; rewrite nth_upd_other by congruence; exact Hc).
  unfold with_map at 1. rewrite Hp1. cbn [m_cob m_data set_data].
  set (w1s := {| w_maps := w_maps w1; w_subs := w_subs w1;
                 w_sent := w_sent w1 ++ [(m_cob mp, f', false)]; w_cblog := w_cblog w1 |}).
  assert (H1s : wf_world w1s) by exact H.
  destruct (reception_updates_exactly_subscribers w1s (m_cob mp) f' ts kc mc H1s Hc1) as (_ & Hupd).
  assert (Hs1 : has_sub (w_subs w1s) (m_cob mp) kc && accepts mc (m_cob mp) = true)
    by (cbn; unfold w1, put; cbn; now rewrite Hsub, Hacc).
  destruct (Hupd Hs1) as (mc' & Hmc' & Hdata & Hts & Hrec & Hlay' & _).
  set (w2 := arrive w1s (m_cob mp) f' ts) in *.
  unfold with_map. rewrite Hmc', Hlay', Hlay, He, Hoff, Hdata, Hr. cbn [res_val].
  repeat split; try reflexivity. exists mc'. auto.
Qed.
