(* Source tie (DESIGN.md 4.3): SdoServer.segmented_upload as translated from the CURRENT source text (Gen/SrcC02.v)
   computes the command byte and the next toggle of the model's segmented_upload (Model/SdoServer.v, C02). *)
From Coq Require Import ZArith List Lia.
From CV Require Import Base.Val Base.Bytes Gen.SdoTables Gen.SrcC02 Model.SdoServer.
Import ListNotations.
Open Scope Z_scope.

Lemma skipn7_nil (buf : list Z) : (Z.max 0 (zlen buf - 7) =? 0) = match skipn 7 buf with [] => true | _ => false end.
Proof.
  unfold zlen. pose proof (skipn_length 7 buf) as H.
  destruct (skipn 7 buf) eqn:E; cbn [length] in H; lia.
Qed.

Theorem src_server_segmented_upload_eq st command buf : s_buf st = Some buf ->
  match src_server_segmented_upload command (s_toggle st) (zlen buf) with
  | None => segmented_upload st command = (st, Abort AB_TOGGLE)
  | Some (c, t) => exists data st', segmented_upload st command = (st', Ok [c :: data]) /\ s_toggle st' = t
  end.
Proof.
  intros Hb. unfold src_server_segmented_upload, segmented_upload. cbv zeta.
  destruct (negb (Z.land command TOGGLE_BIT =? s_toggle st)); [reflexivity|].
  rewrite Hb, skipn7_nil, zlen_firstn, Z.min_comm.
  destruct (skipn 7 buf); eexists; eexists; split; reflexivity.
Qed.
