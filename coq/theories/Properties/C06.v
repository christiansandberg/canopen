(* C06 - Refused SDO accesses report the standard abort code and change nothing.
   Statements only: each theorem is [exact] of a lemma of Proofs/{SdoServer_proofs.v, Src_eq_c06.v};
   the examples are concrete instances.
   Model: Model/SdoServer.v (server, node, dictionary look-ups, SdoClient.read_response),
   reference client: Model/RefClient.v; abort-code table: Gen/SdoTables.v (regenerated).

   [refused_upload d rcb st idx sub fuel code]: the conformant client's upload of idx:sub from ANY
   server state ends with the single frame  80 idx sub code  (abort, multiplexer of the transfer)
   and data_store and callback log are as before.
   [refused_download d rcb st idx sub data mode fuel code]: the conformant client's download of
   [data] in [mode] (0 expedited with size, 1 expedited without, 2 segmented with size,
   3 segmented without) ends with the frame  80 idx sub code  as the last response, data_store is
   unchanged and no callback was invoked.  For segmented transfers the code being modelled answers
   the initiate request and the non-final segments normally and refuses on the final segment;
   the standard lets a server abort at any point of a transfer, the property does not say when. *)
From Coq Require Import ZArith List Bool.
From CV Require Import Base.Val Base.Bytes Base.Tys Gen.Tables Gen.SdoTables Model.Codec Model.RefClient
  Model.SdoServer Proofs.SdoServer_proofs Gen.SrcC06 Proofs.Src_eq_c06.
Import ListNotations.
Open Scope Z_scope.

(* reading a write-only entry: 0x06010001 *)
Theorem C06_read_write_only : forall d rcb st idx sub v fuel,
  0 <= idx < 65536 -> 0 <= sub < 256 ->
  find_object d idx sub = Ok v -> readable v = false ->
  refused_upload d rcb st idx sub fuel 0x06010001.
Proof. exact read_write_only'. Qed.

(* writing a read-only or constant entry (anything whose access type has no "w"): 0x06010002,
   expedited and segmented, whatever the payload *)
Theorem C06_write_read_only : forall d rcb st idx sub v data mode req fuel,
  0 <= idx < 65536 -> 0 <= sub < 256 ->
  download_request idx sub data mode = Some req ->
  find_object d idx sub = Ok v -> writable v = false ->
  (length data <= 7 * fuel)%nat -> (1 <= fuel)%nat ->
  refused_download d rcb st idx sub data mode fuel 0x06010002.
Proof. exact write_read_only. Qed.

(* missing index: 0x06020000 for reads and writes *)
Theorem C06_missing_index : forall d rcb st idx sub fuel,
  0 <= idx < 65536 -> 0 <= sub < 256 -> zassoc idx d = None ->
  refused_upload d rcb st idx sub fuel 0x06020000 /\
  forall data mode req, download_request idx sub data mode = Some req ->
    (length data <= 7 * fuel)%nat -> (1 <= fuel)%nat -> refused_download d rcb st idx sub data mode fuel 0x06020000.
Proof. exact missing_index. Qed.

(* missing sub-index ([sub_missing]: sub-index <> 0 of a plain variable, a sub-index a record does
   not have, a sub-index an array neither has nor can answer from its first member): 0x06090011 *)
Theorem C06_missing_subindex : forall d rcb st idx sub fuel,
  0 <= idx < 65536 -> 0 <= sub < 256 -> sub_missing d idx sub ->
  refused_upload d rcb st idx sub fuel 0x06090011 /\
  forall data mode req, download_request idx sub data mode = Some req ->
    (length data <= 7 * fuel)%nat -> (1 <= fuel)%nat -> refused_download d rcb st idx sub data mode fuel 0x06090011.
Proof. exact missing_subindex. Qed.

(* writing an integer or floating-point entry (data type in NUMBER_TYPES) with a payload whose
   length is not the type's: 0x06070010 *)
Theorem C06_wrong_length : forall d rcb st idx sub v data mode req fuel,
  0 <= idx < 65536 -> 0 <= sub < 256 ->
  download_request idx sub data mode = Some req ->
  find_object d idx sub = Ok v -> writable v = true -> is_number v = true -> 8 * zlen data <> len_bits (v_dt v) ->
  (length data <= 7 * fuel)%nat -> (1 <= fuel)%nat ->
  refused_download d rcb st idx sub data mode fuel 0x06070010.
Proof. exact write_wrong_length. Qed.

(* reading an entry that has no value (no callback result, nothing stored, no parameter value, no
   default): 0x060A0023; the read callback has been asked, nothing else happened *)
Theorem C06_no_value : forall d rcb st idx sub v fuel,
  0 <= idx < 65536 -> 0 <= sub < 256 ->
  find_object d idx sub = Ok v -> readable v = true -> no_value rcb st idx sub v ->
  exists st', ref_upload (on_request d rcb) fuel st idx sub =
                (st', Abort 0x060A0023, [abort_frame_of idx sub 0x060A0023]) /\
              s_store st' = s_store st /\ s_log st' = s_log st ++ [EvR idx sub].
Proof. exact read_no_value. Qed.

(* a segment request (upload or download, any other bits, any length) whose toggle bit is not the
   expected one: exactly one abort 0x05030000 naming the multiplexer of the running transfer; the
   whole state (buffer, toggle, store, log) is unchanged *)
Theorem C06_wrong_toggle : forall d rcb st c rest,
  0 <= c < 256 -> 0 <= s_index st < 65536 -> 0 <= s_sub st < 256 ->
  (c / 32 = 0 \/ c / 32 = 3) -> 16 * ((c / 16) mod 2) <> s_toggle st ->
  on_request d rcb st (c :: rest) = (st, [abort_frame_of (s_index st) (s_sub st) 0x05030000], false).
Proof. exact wrong_toggle. Qed.

(* block download (not supported) and the unassigned command specifier 7: exactly one abort
   0x05040001 naming the multiplexer of the running transfer (zero before any); state unchanged *)
Theorem C06_unknown_command : forall d rcb st c rest,
  0 <= c < 256 -> 0 <= s_index st < 65536 -> 0 <= s_sub st < 256 ->
  (c / 32 = 6 \/ c / 32 = 7) ->
  on_request d rcb st (c :: rest) = (st, [abort_frame_of (s_index st) (s_sub st) 0x05040001], false).
Proof. exact unknown_command. Qed.

(* the hypotheses on s_index / s_sub hold in every state reachable from a fresh server
   (C02_step_invariant); here for histories *)
Theorem C06_reachable_states_in_range : forall d rcb st req,
  mux_inv st -> frame_ok req -> mux_inv (fst (fst (on_request d rcb st req))).
Proof. exact reachable_in_range. Qed.

(* client side: for every code below 2^32 the abort frame makes SdoClient.read_response raise
   SdoAbortedError with exactly that code *)
Theorem C06_client_abort_decoding : forall idx sub code, 0 <= code < 2 ^ 32 ->
  client_read_response (Some (abort_frame_of idx sub code)) = Abort code.
Proof. exact client_abort_decoding. Qed.

(* the codes the server uses are entries of SdoAbortedError.CODES (regenerated table) *)
Theorem C06_codes_in_table : forallb (fun c => zmem c ABORT_CODES) codes_used = true.
Proof. exact codes_in_table. Qed.

(* Tie to the source text (Gen/SrcC06.v is regenerated from /repo by tools/tables/src_c06.py on every run):
   the translated functions determine the model functions the theorems above are about. *)
(* _find_object: missing index -> 0x06020000, then missing sub-index -> 0x06090011 (records/arrays by membership, plain variables by sub-index <> 0) *)
Theorem C06_src_find_object : forall d idx sub,
  code_of (find_object d idx sub) = src_find_object (has_index d idx) (is_var d idx) (has_sub d idx sub) sub /\
  (forall k, find_object d idx sub <> Err k).
Proof. exact src_find_object_eq. Qed.

(* get_data: _find_object first, then not readable -> 0x06010001 BEFORE any callback, then read callback / data_store / value / default in this order, else 0x060A0023 *)
Theorem C06_src_get_data : forall d rcb st idx sub chk,
  match find_object d idx sub with
  | Ok v =>
      let '(code, src, cbrun) :=
        src_get_data 0 chk (readable v) (osome6 (rcb idx sub)) (osome6 (store_get (s_store st) idx sub))
                     (osome6 (v_value v)) (osome6 (v_default v)) false in
      get_data d rcb st idx sub chk =
        (if cbrun then log_ev st (EvR idx sub) else st,
         if code =? 0 then value_from rcb st idx sub v src else Abort code)
  | Abort c =>
      get_data d rcb st idx sub chk = (st, Abort c) /\
      forall r h s a b, src_get_data c chk r h s a b false = (c, 0, false)
  | Err _ => False
  end.
Proof. exact src_get_data_eq. Qed.

(* set_data: _find_object, then not writable -> 0x06010002, then the numeric length check -> 0x06070010, and only then the write callbacks followed by the store; a refusal stores nothing and runs no callback *)
Theorem C06_src_set_data : forall d st idx sub data chk,
  match find_object d idx sub with
  | Ok v =>
      let '(code, stored, cbrun, cbfirst) :=
        src_set_data 0 chk (writable v) (dt_or v) (zlen data) (len_bits (v_dt v)) 0 false false false in
      set_data d st idx sub data chk =
        (if code =? 0 then (store_put (log_ev st (EvW idx sub data)) idx sub data, Ok tt) else (st, Abort code)) /\
      (if code =? 0 then stored = true /\ cbrun = true /\ cbfirst = true else stored = false /\ cbrun = false)
  | Abort c =>
      set_data d st idx sub data chk = (st, Abort c) /\
      forall w t n l, src_set_data c chk w t n l 0 false false false = (c, false, false, false)
  | Err _ => False
  end.
Proof. exact src_set_data_eq. Qed.

(* on_request: the handler selected by command & 0xE0; SdoAbortedError(code) -> abort(code), KeyError -> abort(0x06020000), anything else -> abort() with the default code; block download and unknown specifiers -> 0x05040001 *)
Theorem C06_src_dispatch : forall d rcb st c rest,
  on_request d rcb st (c :: rest) =
  let h := src_dispatch c 0 in
  let '(st1, r) :=
    if h =? 1 then init_upload d rcb st (c :: rest)
    else if h =? 2 then segmented_upload st c
    else if h =? 3 then init_download d st (c :: rest)
    else if h =? 4 then segmented_download d st c (c :: rest)
    else if h =? 5 then (if src_block_upload 0 =? 1 then init_upload d rcb st (c :: rest) else (st, Err E_FUEL))
    else if h =? 6 then (st, Abort (src_block_download 0))
    else if h =? 7 then request_aborted st (c :: rest)
    else (st, Abort 0x05040001) in
  match r with
  | Ok rs => (st1, rs, false)
  | Abort code => do_abort st1 code
  | Err k => do_abort st1 (if k =? E_KEY then 0x06020000 else src_abort_default)
  end.
Proof. exact src_dispatch_eq. Qed.

(* segmented_download: toggle mismatch -> 0x05030000 BEFORE any state change; buffer extended by request[1:last_byte], set_data only on the last segment, toggle and response only when it succeeded *)
Theorem C06_src_segmented_download : forall d st command req buf,
  s_buf st = Some buf ->
  let lb := 8 - Z.land (Z.shiftr command 1) 7 in
  let buf1 := buf ++ firstn (Z.to_nat (lb - 1)) (skipn 1 req) in
  let st1 := set_buf st (Some buf1) (s_toggle st) in
  let sd := set_data d st1 (s_index st) (s_sub st) buf1 true in
  let '(code, extended, last_byte, setcalled, resc, tg) :=
    src_segmented_download command (s_toggle st) (code_of (snd sd)) false false in
  if negb extended then code = 0x05030000 /\ segmented_download d st command req = (st, Abort code)
  else last_byte = lb /\
       if code =? 0 then
         let st2 := if setcalled then fst sd else st1 in
         segmented_download d st command req = (set_buf st2 (s_buf st2) tg, Ok [[resc; 0; 0; 0; 0; 0; 0; 0]])
       else setcalled = true /\ segmented_download d st command req = (fst sd, Abort code).
Proof. exact src_segmented_download_eq. Qed.

(* abort(): 0x80, multiplexer of the running transfer, code *)
Theorem C06_src_abort_frame : forall st code,
  0 <= s_index st < 65536 -> 0 <= s_sub st < 256 -> 0 <= code < 2 ^ 32 ->
  let '(b0, i, s, c, sent) := src_abort_frame (s_index st) (s_sub st) code false in
  abort_frame st code = Some (b0 :: le_encode 2 i ++ [s] ++ le_encode 4 c) /\ sent = true /\
  do_abort st code = (st, [abort_frame_of (s_index st) (s_sub st) code], false).
Proof. exact src_abort_frame_eq. Qed.

Example C06_nv_read_write_only :
  let d := [(0x2003, OVar (mkVar (Some dt_UNSIGNED16) [119; 111] None None))] in
  find_object d 0x2003 0 = Ok (mkVar (Some dt_UNSIGNED16) [119; 111] None None) /\
  readable (mkVar (Some dt_UNSIGNED16) [119; 111] None None) = false /\
  snd (fst (ref_upload (on_request d nv_rcb) 2 (fresh_state []) 0x2003 0)) = Abort 0x06010001.
Proof. repeat split; vm_compute; reflexivity. Qed.

Example C06_nv_write_read_only :
  let ro := mkVar (Some dt_DOMAIN) [99; 111; 110; 115; 116] (Some (PBytes [1])) None in
  let d := [(0x2002, ORec [(0, ro); (3, ro)])] in
  writable ro = false /\
  snd (fst (ref_download (on_request d nv_rcb) 4 (fresh_state []) 0x2002 3 nv_data 2)) = Abort 0x06010002 /\
  snd (fst (ref_download (on_request d nv_rcb) 4 (fresh_state []) 0x2002 3 [1; 2] 0)) = Abort 0x06010002 /\
  s_store (fst (fst (ref_download (on_request d nv_rcb) 4 (fresh_state []) 0x2002 3 nv_data 2))) = [].
Proof. repeat split; vm_compute; reflexivity. Qed.

Example C06_nv_missing :
  let a := mkVar (Some dt_UNSIGNED8) [114; 119] (Some (PInt 1)) None in
  let d := [(0x2000, OVar a); (0x2001, OArr [(0, a)]); (0x2002, OArr [(0, a); (1, a)])] in
  zassoc 0x3000 d = None /\ sub_missing d 0x2000 5 /\ sub_missing d 0x2001 4 /\ ~ sub_missing d 0x2002 4 /\
  snd (fst (ref_upload (on_request d nv_rcb) 2 (fresh_state []) 0x3000 0)) = Abort 0x06020000 /\
  snd (fst (ref_upload (on_request d nv_rcb) 2 (fresh_state []) 0x2001 4)) = Abort 0x06090011 /\
  snd (fst (ref_upload (on_request d nv_rcb) 2 (fresh_state []) 0x2002 4)) = Ok [1].
Proof.
  cbv zeta. split; [reflexivity|]. split; [vm_compute; discriminate|].
  split; [vm_compute; split; [reflexivity|right; reflexivity]|].
  split; [vm_compute; intros (_ & [H | H]); [apply H; split; reflexivity|discriminate]|].
  repeat split; vm_compute; reflexivity.
Qed.

Example C06_nv_wrong_length :
  let u16 := mkVar (Some dt_UNSIGNED16) [114; 119] None None in
  let d := [(0x2001, OVar u16)] in
  is_number u16 = true /\ 8 * zlen [1; 2; 3] <> len_bits (v_dt u16) /\
  snd (fst (ref_download (on_request d nv_rcb) 4 (fresh_state []) 0x2001 0 [1; 2; 3] 0)) = Abort 0x06070010 /\
  snd (fst (ref_download (on_request d nv_rcb) 4 (fresh_state []) 0x2001 0 [1; 2; 3; 4; 5; 6; 7; 8; 9] 3)) = Abort 0x06070010.
Proof. cbv zeta. split; [reflexivity|]. split; [vm_compute; discriminate|]. split; vm_compute; reflexivity. Qed.

Example C06_nv_no_value :
  let e := mkVar (Some dt_DOMAIN) [114; 111] None None in
  no_value nv_rcb (fresh_state []) 0x2000 0 e /\
  snd (fst (ref_upload (on_request [(0x2000, OVar e)] nv_rcb) 2 (fresh_state []) 0x2000 0)) = Abort 0x060A0023.
Proof. cbv zeta. split; [repeat split|vm_compute; reflexivity]. Qed.

(* a running 20-byte upload; the second segment request repeats toggle 0 *)
Example C06_nv_wrong_toggle :
  let st1 := fst (fst (on_request nv_dict nv_rcb (fresh_state []) [0x40; 0; 0x20; 0; 0; 0; 0; 0])) in
  let st2 := fst (fst (on_request nv_dict nv_rcb st1 [0x60; 0; 0; 0; 0; 0; 0; 0])) in
  16 * ((0x60 / 16) mod 2) <> s_toggle st2 /\
  snd (fst (on_request nv_dict nv_rcb st2 [0x60; 0; 0; 0; 0; 0; 0; 0])) = [[0x80; 0; 0x20; 0; 0; 0; 3; 5]].
Proof. cbv zeta. split; [vm_compute; discriminate|vm_compute; reflexivity]. Qed.

Example C06_nv_client_abort_decoding :
  client_read_response (Some (abort_frame_of 0x1018 2 0xFFFFFFFF)) = Abort 0xFFFFFFFF /\
  client_read_response (Some [0x80; 0; 0x20; 0; 0x11; 0; 9; 6]) = Abort 0x06090011.
Proof. split; vm_compute; reflexivity. Qed.

Print Assumptions C06_read_write_only.
Print Assumptions C06_write_read_only.
Print Assumptions C06_missing_index.
Print Assumptions C06_missing_subindex.
Print Assumptions C06_wrong_length.
Print Assumptions C06_no_value.
Print Assumptions C06_wrong_toggle.
Print Assumptions C06_unknown_command.
Print Assumptions C06_reachable_states_in_range.
Print Assumptions C06_client_abort_decoding.
Print Assumptions C06_codes_in_table.
Print Assumptions C06_src_find_object.
Print Assumptions C06_src_get_data.
Print Assumptions C06_src_set_data.
Print Assumptions C06_src_dispatch.
Print Assumptions C06_src_segmented_download.
Print Assumptions C06_src_abort_frame.
