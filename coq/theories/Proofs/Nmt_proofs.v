(* NMT master and slave (Model/Nmt.v) against the CiA 301 state machine of Model/RefNmt.v and the regenerated tables
   of Gen/NmtTables.v (C11).  The lookup in COMMAND_TO_STATE is made a total function (tbl, capply) and tied to the
   reference transition function by case analysis on the keys of the table, the name tables by complete evaluation,
   so both are re-checked against the source.  The steps of the system are brought to closed forms (deliver0_cons2,
   master_send_byte); the theorems then follow by induction over the events. *)
From Coq Require Import ZArith List Bool Lia String.
From CV Require Import Base.Val Base.Bits Base.Bytes Base.Tys Gen.NmtTables Model.RefNmt Model.Nmt.
Import ListNotations.
Open Scope string_scope.
Open Scope list_scope.
Open Scope Z_scope.

Lemma sassoc_in : forall A k (l : list (list Z * A)) v, sassoc k l = Some v -> In (k, v) l.
Proof.
  induction l as [|[k' a] l IH]; cbn; intros v H; try discriminate.
  destruct (list_Z_eqb k k') eqn:E.
  - apply list_Z_eqb_eq in E. inversion H; subst; auto.
  - right; auto.
Qed.

Lemma sassoc_none_key : forall A k (l : list (list Z * A)), sassoc k l = None -> ~ In k (map fst l).
Proof.
  induction l as [|[k' a] l IH]; cbn; intros H; auto.
  destruct (list_Z_eqb k k') eqn:E; try discriminate.
  intros [H1 | H1].
  - subst. rewrite list_Z_eqb_refl in E. discriminate.
  - apply IH; auto.
Qed.

Lemma sassoc_none : forall A k (l : list (list Z * A)) v, sassoc k l = None -> ~ In (k, v) l.
Proof. intros A k l v H Hin. apply (sassoc_none_key _ _ _ H). exact (in_map fst _ _ Hin). Qed.

(* every state COMMAND_TO_STATE maps to has a name (NMT_STATES[new_state] never raises), and every
   command specifier in it fits in a byte *)
Lemma cts_entry : forall c s, zassoc c COMMAND_TO_STATE = Some s -> known s = true /\ is_byte c = true.
Proof.
  intros c s H. apply zassoc_In in H.
  assert (A : forallb (fun p => known (snd p) && is_byte (fst p)) COMMAND_TO_STATE = true) by (vm_compute; reflexivity).
  rewrite forallb_forall in A. apply andb_true_iff, (A (c, s) H).
Qed.

(* the table lookup as a total function on the state *)
Definition tbl (st code : Z) : Z :=
  match zassoc code COMMAND_TO_STATE with Some s => s | None => st end.

Lemma base_send_tbl : forall st code, base_send st code = Some (tbl st code).
Proof.
  intros. unfold base_send, tbl. destruct (zassoc code COMMAND_TO_STATE) eqn:E; auto.
  rewrite (proj1 (cts_entry _ _ E)). reflexivity.
Qed.

Definition capply (id st cmd nid : Z) : Z :=
  if (nid =? id) || (nid =? 0) then tbl st cmd else st.

Lemma cmd_apply_capply : forall id st cmd nid, cmd_apply id st cmd nid = Some (capply id st cmd nid).
Proof.
  intros. unfold cmd_apply, capply, tbl. destruct ((nid =? id) || (nid =? 0)); auto.
  destruct (zassoc cmd COMMAND_TO_STATE) eqn:E; auto.
  rewrite (proj1 (cts_entry _ _ E)), orb_true_r. reflexivity.
Qed.

(* THE tie between the regenerated COMMAND_TO_STATE table and the hand-written CiA 301
   transition function: case analysis on every key comparison of both sides *)
Lemma tbl_spec : forall s c, tbl (st_code s) c = st_code (cs_step s c).
Proof.
  intros s c. unfold tbl, cs_step, COMMAND_TO_STATE. cbn [zassoc].
  repeat match goal with
         | |- context [Z.eqb c ?k] =>
             destruct (Z.eqb_spec c k); [subst c; vm_compute; reflexivity | ]
         end.
  reflexivity.
Qed.

Lemma capply_spec : forall own s c nid, capply own (st_code s) c nid = st_code (ref_cmd own s c nid).
Proof.
  intros. unfold capply, ref_cmd, ref_addressed. destruct ((nid =? own) || (nid =? 0)); auto.
  apply tbl_spec.
Qed.

Lemma tbl_idem : forall st c, tbl (tbl st c) c = tbl st c.
Proof. intros. unfold tbl. destruct (zassoc c COMMAND_TO_STATE); auto. Qed.

Lemma capply_own : forall own st c, capply own st c own = tbl st c.
Proof. intros. unfold capply. rewrite Z.eqb_refl. reflexivity. Qed.

Lemma tbl_nonbyte : forall st c, is_byte c = false -> tbl st c = st.
Proof.
  intros. unfold tbl. destruct (zassoc c COMMAND_TO_STATE) eqn:E; auto.
  apply cts_entry in E. destruct E. congruence.
Qed.

(* state names: NMT_STATES against the reference names *)
Lemma state_name_spec : forall s, state_name (st_code s) = str_codes (st_name s).
Proof. destruct s; vm_compute; reflexivity. Qed.

(* names: NMT_COMMANDS against the reference list, both directions, by complete evaluation *)
Lemma names_fwd_all :
  forallb (fun p => match ref_name_cs (fst p) with Some c => c =? snd p | None => false end) NMT_COMMANDS = true.
Proof. vm_compute. reflexivity. Qed.

Lemma names_bwd_all :
  forallb (fun p => match sassoc (str_codes (fst p)) NMT_COMMANDS with Some c => c =? snd p | None => false end) ref_names = true.
Proof. vm_compute. reflexivity. Qed.

Lemma name_code_ref : forall name,
  name_code name = match ref_name_cs name with Some cs => Ok cs | None => Err E_VALUE end.
Proof.
  intros name. unfold name_code.
  destruct (sassoc name NMT_COMMANDS) eqn:E.
  - apply sassoc_in in E. pose proof names_fwd_all as A. rewrite forallb_forall in A.
    specialize (A _ E). cbn [fst snd] in A. destruct (ref_name_cs name); try discriminate.
    apply Z.eqb_eq in A. subst. reflexivity.
  - destruct (ref_name_cs name) eqn:R; auto. exfalso.
    unfold ref_name_cs in R. destruct (find _ ref_names) eqn:F; try discriminate.
    apply find_some in F. destruct F as [F1 F2]. apply list_Z_eqb_eq in F2.
    pose proof names_bwd_all as A. rewrite forallb_forall in A. specialize (A _ F1).
    rewrite <- F2 in A. rewrite E in A. discriminate.
Qed.

Lemma ref_name_in : forall n cs, In (n, cs) ref_names -> ref_name_cs (str_codes n) = Some cs.
Proof.
  intros n cs H.
  assert (A : forallb (fun p => match ref_name_cs (str_codes (fst p)) with Some c => c =? snd p | None => false end) ref_names = true)
    by (vm_compute; reflexivity).
  rewrite forallb_forall in A. specialize (A _ H). cbn [fst snd] in A.
  destruct (ref_name_cs (str_codes n)); try discriminate. apply Z.eqb_eq in A. subst. reflexivity.
Qed.

Lemma ref_name_none : forall name,
  ref_name_cs name = None <-> (forall n cs, In (n, cs) ref_names -> name <> str_codes n).
Proof.
  intros name. unfold ref_name_cs. destruct (find _ ref_names) as [[n cs]|] eqn:F; split; try discriminate; auto.
  - intros H. apply find_some in F. destruct F as [F1 F2]. apply list_Z_eqb_eq in F2. destruct (H n cs F1 F2).
  - intros _ n cs Hin E. apply (find_none _ _ F) in Hin. cbn [fst] in Hin.
    rewrite E, list_Z_eqb_refl in Hin. discriminate.
Qed.

Lemma ref_name_cs_byte : forall name cs, ref_name_cs name = Some cs -> is_byte cs = true.
Proof.
  intros name cs R. unfold ref_name_cs in R. destruct (find _ ref_names) eqn:F; [|discriminate].
  injection R as <-. apply find_some in F. destruct F as [F _].
  assert (A : forallb (fun p => is_byte (snd p)) ref_names = true) by (vm_compute; reflexivity).
  rewrite forallb_forall in A. exact (A _ F).
Qed.

Lemma hb_state_ref : forall b, hb_state b = ref_hb_code b.
Proof. intros. unfold hb_state, ref_hb_code. rewrite land_127. reflexivity. Qed.

(* bit 7, the toggle bit, is ignored *)
Lemma toggle_ignored : forall b, Z.land (Z.lxor b 128) 127 = Z.land b 127.
Proof.
  intros b. apply Z.bits_inj'. intros n Hn. rewrite !Z.land_spec, Z.lxor_spec.
  change 128 with (2 ^ 7). change 127 with (Z.ones 7). rewrite Z.pow2_bits_eqb, Z.testbit_ones_nonneg by lia.
  destruct (Z.eqb_spec 7 n), (Z.ltb_spec n 7); try lia; now rewrite ?xorb_false_r, ?andb_false_r.
Qed.

Definition upd_task (t : option (list Z * Z)) (s : Z) : option (list Z * Z) :=
  match t with Some (_, p) => Some ([s], p) | None => None end.

Lemma deliver0_cons2 : forall own oth w c n rest,
  deliver0 own oth w (c :: n :: rest) =
  (mkW (capply own (w_m w) c n) (w_recv w) (capply oth (w_o w) c n) (w_b w)
       (capply own (w_s w) c n) (upd_task (w_task w) (capply own (w_s w) c n)) (w_od w), None).
Proof.
  intros. unfold deliver0, unpack_BB. rewrite cmd_apply_capply.
  destruct w as [m r o b s t od]. cbn [w_s w_m w_o w_b w_recv w_task w_od set_s].
  unfold update_hb; cbn [w_task w_s].
  destruct t as [[d p]|]; cbn [set_task set_master w_s w_m w_o w_b w_recv w_task w_od upd_task];
    rewrite !cmd_apply_capply; cbn [set_task set_master w_s w_m w_o w_b w_recv w_task w_od]; reflexivity.
Qed.

Lemma deliver0_short : forall own oth w data, (List.length data < 2)%nat ->
  deliver0 own oth w data = (w, Some E_STRUCT).
Proof.
  intros. destruct data as [|c [|n rest]]; cbn in *; try lia; reflexivity.
Qed.

Lemma set_master_s : forall w m st, w_s (set_master w m st) = w_s w.
Proof. destruct m; reflexivity. Qed.
Lemma set_master_task : forall w m st, w_task (set_master w m st) = w_task w.
Proof. destruct m; reflexivity. Qed.
Lemma set_master_od : forall w m st, w_od (set_master w m st) = w_od w.
Proof. destruct m; reflexivity. Qed.
Lemma set_master_recv : forall w m st, w_recv (set_master w m st) = w_recv w.
Proof. destruct m; reflexivity. Qed.

(* closed form of NmtMaster.send_command *)
Lemma master_send_byte : forall lp own oth w m code, is_byte code = true ->
  master_send lp own oth w m code =
  ((if lp then fst (deliver0 own oth (set_master w m (tbl (get_master w m) code)) [code; mid own oth m])
    else set_master w m (tbl (get_master w m) code)),
   ([(0, [code; mid own oth m])], [], None)).
Proof.
  intros. unfold master_send. rewrite base_send_tbl, H. destruct lp; [rewrite deliver0_cons2|]; reflexivity.
Qed.

Lemma master_send_nonbyte : forall lp own oth w m code, is_byte code = false ->
  master_send lp own oth w m code = (w, ([], [], Some E_VALUE)).
Proof.
  intros. unfold master_send. rewrite base_send_tbl, H. rewrite tbl_nonbyte by exact H.
  destruct w, m; reflexivity.
Qed.

(* deliver_hb never fails on a non-empty frame *)
Lemma deliver_hb_cons : forall w b rest,
  deliver_hb w (b :: rest) = (set_m w (hb_state b, Some (Z.land b 127)), [Z.land b 127], None).
Proof. reflexivity. Qed.

Lemma update_hb_s : forall w, w_s (update_hb w) = w_s w.
Proof. intros. unfold update_hb. destruct (w_task w) as [[d p]|]; reflexivity. Qed.
Lemma start_hb_s : forall w t, w_s (start_hb w t) = w_s w.
Proof. reflexivity. Qed.

Lemma ws_branch : forall (c : bool) w2, w_s (if c then start_hb w2 (w_od w2) else update_hb w2) = w_s w2.
Proof. intros. destruct c; rewrite ?update_hb_s; reflexivity. Qed.

Lemma master_frame : forall lp own oth w m code, 0 <= code < 256 ->
  snd (step lp own oth w (ECmd m code)) = ([(0, [code; mid own oth m])], [], None).
Proof.
  intros. cbn [step]. rewrite master_send_byte; [reflexivity|]. unfold is_byte. lia.
Qed.

Lemma master_frame_name : forall lp own oth w m n cs, In (n, cs) ref_names ->
  0 <= cs < 256 /\
  snd (step lp own oth w (EName m (str_codes n))) = ([(0, [cs; mid own oth m])], [], None).
Proof.
  intros lp own oth w m n cs H. pose proof (ref_name_cs_byte _ _ (ref_name_in _ _ H)) as B.
  split; [unfold is_byte in B; lia|].
  cbn [step]. rewrite name_code_ref, (ref_name_in _ _ H). rewrite master_send_byte by exact B. reflexivity.
Qed.

Lemma invalid_name_rejected : forall lp own oth w name,
  (forall n cs, In (n, cs) ref_names -> name <> str_codes n) ->
  (forall m, step lp own oth w (EName m name) = (w, ([], [], Some E_VALUE))) /\
  step lp own oth w (ESName name) = (w, ([], [], Some E_VALUE)).
Proof.
  intros lp own oth w name H. apply ref_name_none in H.
  split; [intros m|]; cbn [step]; rewrite name_code_ref, H; reflexivity.
Qed.

Definition ref_frame (own : Z) (s : nmt_st) (data : list Z) : nmt_st :=
  match data with cs :: nid :: _ => ref_cmd own s cs nid | _ => s end.

(* what rx_fold does with one frame *)
Lemma rx_step : forall id st data,
  match on_command id st data with Ok s' => s' | _ => st end =
  match data with c :: n :: _ => capply id st c n | _ => st end.
Proof.
  intros. destruct data as [|c [|n rest]]; try reflexivity.
  unfold on_command, unpack_BB, rbind. cbn [fst snd]. rewrite cmd_apply_capply. reflexivity.
Qed.

Lemma slave_follows_spec : forall own frames s,
  rx_fold own (st_code s) frames = st_code (fold_left (ref_frame own) frames s).
Proof.
  intros own frames. induction frames as [|d r IH]; intros s; [reflexivity|].
  unfold rx_fold in *. cbn [fold_left]. rewrite rx_step, <- IH. f_equal.
  destruct d as [|c [|n rest]]; try reflexivity. apply capply_spec.
Qed.

(* the slave object inside the system does exactly rx_fold on a received frame *)
Lemma deliver0_is_on_command : forall own oth w data,
  w_s (fst (deliver0 own oth w data)) = rx_fold own (w_s w) [data].
Proof.
  intros. unfold rx_fold. cbn [fold_left]. rewrite rx_step. destruct data as [|c [|n rest]]; try reflexivity.
  rewrite deliver0_cons2. reflexivity.
Qed.

Lemma other_ids_noop : forall own frames st,
  Forall (fun d => match d with _ :: nid :: _ => nid <> own /\ nid <> 0 | _ => True end) frames ->
  rx_fold own st frames = st.
Proof.
  intros own frames. induction frames as [|d r IH]; intros st H; [reflexivity|].
  inversion H as [|x l H1 H2]; subst. unfold rx_fold in *. cbn [fold_left]. rewrite rx_step.
  replace (match d with c :: n :: _ => capply own st c n | _ => st end) with st; [apply IH; exact H2|].
  destruct d as [|c [|n rest]]; try reflexivity. unfold capply.
  destruct H1 as [A B]. destruct (Z.eqb_spec n own), (Z.eqb_spec n 0); try contradiction. reflexivity.
Qed.

Lemma step_slave : forall own oth w s e, w_s w = st_code s ->
  w_s (fst (step true own oth w e)) = st_code (ref_slave_event own oth s e).
Proof.
  intros own oth w s e Hs.
  assert (CMD : forall m code, w_s (fst (master_send true own oth w m code)) =
                 st_code (if is_byte code then ref_cmd own s code (mid own oth m) else s)).
  { intros m code. destruct (is_byte code) eqn:B.
    - rewrite master_send_byte by exact B. rewrite deliver0_cons2. cbn [fst w_s].
      rewrite set_master_s, Hs. apply capply_spec.
    - rewrite master_send_nonbyte by exact B. exact Hs. }
  assert (LOC : forall code, w_s (fst (slave_send true own w code)) = st_code (cs_step s code)).
  { intros code. unfold slave_send. rewrite base_send_tbl, Hs, tbl_spec.
    destruct (st_code (cs_step s code) =? 0); rewrite ?deliver_hb_cons; cbn [fst]; rewrite ws_branch; reflexivity. }
  destruct e as [m code|m name|data|data|code|name|t|]; cbn [step ref_slave_event].
  - apply CMD.
  - rewrite name_code_ref. destruct (ref_name_cs name) as [cs|] eqn:R; [|exact Hs].
    rewrite CMD, (ref_name_cs_byte _ _ R). reflexivity.
  - destruct data as [|c [|n rest]]; try exact Hs.
    rewrite deliver0_cons2. cbn [fst w_s]. rewrite Hs. apply capply_spec.
  - destruct data as [|b rest]; [exact Hs|]. rewrite deliver_hb_cons. exact Hs.
  - apply LOC.
  - rewrite name_code_ref. destruct (ref_name_cs name) as [cs|]; [apply LOC | exact Hs].
  - unfold slave_set_hb. destruct ((0 <=? t) && (t <? 65536)); [|exact Hs].
    destruct (t =? 0); exact Hs.
  - destruct (w_task w) as [[d p]|]; [|exact Hs].
    destruct d as [|b rest]; [exact Hs|]. rewrite deliver_hb_cons. exact Hs.
Qed.

Lemma system_follows_spec : forall own oth evs w s, w_s w = st_code s ->
  w_s (run true own oth w evs) = st_code (ref_slave_run own oth s evs) /\
  state_name (w_s (run true own oth w evs)) = str_codes (st_name (ref_slave_run own oth s evs)).
Proof.
  intros own oth evs.
  assert (A : forall w s, w_s w = st_code s -> w_s (run true own oth w evs) = st_code (ref_slave_run own oth s evs)).
  { induction evs as [|e r IH]; intros w s H; [exact H|].
    unfold run, ref_slave_run in *. cbn [fold_left]. apply IH. apply step_slave. exact H. }
  intros w s H. split; [apply A; exact H|]. rewrite (A w s H). apply state_name_spec.
Qed.

Definition master_driven (e : event) : Prop :=
  match e with ECmd _ _ | EName _ _ | ERaw _ => True | _ => False end.

Lemma deliver0_agree : forall own oth w data, w_m w = w_s w ->
  w_m (fst (deliver0 own oth w data)) = w_s (fst (deliver0 own oth w data)).
Proof.
  intros. destruct data as [|c [|n rest]]; try exact H.
  rewrite deliver0_cons2. cbn [fst w_m w_s]. rewrite H. reflexivity.
Qed.

Lemma master_send_agree : forall own oth w m code, w_m w = w_s w ->
  w_m (fst (master_send true own oth w m code)) = w_s (fst (master_send true own oth w m code)).
Proof.
  intros own oth w m code H. destruct (is_byte code) eqn:B.
  - rewrite master_send_byte by exact B. rewrite deliver0_cons2. cbn [fst w_m w_s].
    rewrite set_master_s. destruct m; cbn [set_master get_master w_m mid]; rewrite <- H; [|reflexivity..].
    rewrite !capply_own. apply tbl_idem.
  - rewrite master_send_nonbyte by exact B. exact H.
Qed.

Lemma step_agree : forall own oth w e, master_driven e -> w_m w = w_s w ->
  w_m (fst (step true own oth w e)) = w_s (fst (step true own oth w e)).
Proof.
  intros own oth w e D H. destruct e; try contradiction; cbn [step].
  - apply master_send_agree. exact H.
  - destruct (name_code name); try exact H. apply master_send_agree. exact H.
  - pose proof (deliver0_agree own oth w data H) as A.
    destruct (deliver0 own oth w data). exact A.
Qed.

Lemma run_agree : forall own oth evs w, Forall master_driven evs -> w_m w = w_s w ->
  w_m (run true own oth w evs) = w_s (run true own oth w evs).
Proof.
  intros own oth evs. induction evs as [|e r IH]; intros w F H; [exact H|].
  inversion F; subst. unfold run in *. cbn [fold_left]. apply IH; auto. apply step_agree; auto.
Qed.

Lemma master_slave_agree : forall own oth evs w k, Forall master_driven evs -> w_m w = w_s w ->
  let w' := run true own oth w (firstn k evs) in
  w_m w' = w_s w' /\ state_name (w_m w') = state_name (w_s w').
Proof.
  intros own oth evs w k F H w'.
  assert (A : w_m w' = w_s w') by (apply run_agree; [apply Forall_firstn_skipn, F | exact H]).
  split; [exact A | rewrite A; reflexivity].
Qed.

(* the sender's view after a command is the state the command assigns, whether or not the bus
   hands the frame back to the sender's Network, and whatever the view was before (e.g. an
   undefined state number received in a heartbeat) *)
Lemma master_assumes_commanded : forall lp own oth w code, 0 <= code < 256 ->
  w_m (fst (step lp own oth w (ECmd MOwn code))) = tbl (w_m w) code /\
  (forall s, w_m w = st_code s -> w_m (fst (step lp own oth w (ECmd MOwn code))) = st_code (cs_step s code)) /\
  (forall st, zassoc code COMMAND_TO_STATE = Some st -> w_m (fst (step lp own oth w (ECmd MOwn code))) = st).
Proof.
  intros lp own oth w code H.
  assert (A : w_m (fst (step lp own oth w (ECmd MOwn code))) = tbl (w_m w) code).
  { cbn [step]. rewrite master_send_byte by (unfold is_byte; lia). destruct lp; cbn [fst].
    - rewrite deliver0_cons2. cbn [fst w_m set_master get_master mid]. rewrite capply_own. apply tbl_idem.
    - reflexivity. }
  split; [exact A|]. split.
  - intros s E. rewrite A, E. apply tbl_spec.
  - intros st E. rewrite A. unfold tbl. rewrite E. reflexivity.
Qed.

Definition task_ok (w : world) : Prop := forall d p, w_task w = Some (d, p) -> d = [w_s w].

Lemma upd_task_ok : forall t s d p, upd_task t s = Some (d, p) -> d = [s].
Proof. intros t s d p H. destruct t as [[d' p']|]; cbn in H; try discriminate. inversion H; reflexivity. Qed.

Lemma start_hb_ok : forall w t, task_ok (start_hb w t).
Proof.
  intros w t d p H. unfold start_hb in H. cbn [set_task w_task] in H.
  destruct (0 <? t); [|discriminate]. now injection H as <- _.
Qed.

Lemma update_hb_ok : forall w, task_ok (update_hb w).
Proof.
  intros w. unfold update_hb. destruct (w_task w) as [[d' p']|] eqn:E; intros d p H; [|congruence].
  cbn [set_task w_task w_s] in *. now injection H as <- _.
Qed.

Lemma deliver0_task_ok : forall own oth w data, task_ok w -> task_ok (fst (deliver0 own oth w data)).
Proof.
  intros own oth w data T. destruct data as [|c [|n rest]]; try exact T.
  rewrite deliver0_cons2. intros d p H. exact (upd_task_ok _ _ _ _ H).
Qed.

Lemma step_task_ok : forall lp own oth w e, task_ok w -> task_ok (fst (step lp own oth w e)).
Proof.
  intros lp own oth w e T.
  assert (CMD : forall m code, task_ok (fst (master_send lp own oth w m code))).
  { intros m code. destruct (is_byte code) eqn:B.
    - rewrite master_send_byte by exact B.
      assert (T1 : task_ok (set_master w m (tbl (get_master w m) code))).
      { intros d p H. rewrite set_master_task in H. rewrite set_master_s. exact (T d p H). }
      destruct lp; [apply deliver0_task_ok|]; exact T1.
    - rewrite master_send_nonbyte by exact B. exact T. }
  assert (LOC : forall code, task_ok (fst (slave_send lp own w code))).
  { intros code. unfold slave_send. rewrite base_send_tbl.
    destruct (tbl (w_s w) code =? 0), lp; rewrite ?deliver_hb_cons; cbn [fst];
      destruct (_ && _); apply start_hb_ok || apply update_hb_ok. }
  destruct e as [m code|m name|data|data|code|name|t|]; cbn [step].
  - apply CMD.
  - destruct (name_code name); try exact T. apply CMD.
  - pose proof (deliver0_task_ok own oth w data T) as A. destruct (deliver0 own oth w data). exact A.
  - destruct data as [|b rest]; [exact T|]. rewrite deliver_hb_cons. exact T.
  - apply LOC.
  - destruct (name_code name); try exact T. apply LOC.
  - unfold slave_set_hb. destruct ((0 <=? t) && (t <? 65536)); [|exact T]. cbn [fst].
    destruct (t =? 0); [discriminate | apply (start_hb_ok w t)].
  - destruct (w_task w) as [[d p]|]; [|exact T]. destruct lp; [|exact T].
    destruct d as [|b rest]; [exact T|]. rewrite deliver_hb_cons. exact T.
Qed.

Lemma run_task_ok : forall lp own oth evs w, task_ok w -> task_ok (run lp own oth w evs).
Proof.
  intros lp own oth evs. induction evs as [|e r IH]; intros w T; [exact T|].
  unfold run in *. cbn [fold_left]. apply IH. apply step_task_ok. exact T.
Qed.

Lemma init_task_ok : forall od0, task_ok (init_world od0).
Proof. intros od0 d p H. discriminate. Qed.

(* after any history, a heartbeat tick carries the state of the reference machine and the
   master then reports that state (INITIALISING, state byte 0, reads as a boot-up message) *)
Lemma heartbeat_reports_slave : forall own oth od0 evs p d,
  let w := run true own oth (init_world od0) evs in
  let s := ref_slave_run own oth Initialising evs in
  w_task w = Some (d, p) ->
  snd (step true own oth w ETick) = ([(1792 + own, [st_code s])], [st_code s], None) /\
  state_name (w_m (fst (step true own oth w ETick))) =
    str_codes (st_name (match s with Initialising => PreOperational | _ => s end)).
Proof.
  intros own oth od0 evs p d w s H.
  assert (S : w_s w = st_code s) by (apply system_follows_spec; reflexivity).
  assert (T : d = [w_s w]) by (eapply (run_task_ok true own oth evs (init_world od0) (init_task_ok od0)); exact H).
  subst d. cbn [step]. rewrite H, deliver_hb_cons. cbn [fst snd w_m set_m]. rewrite S.
  split.
  - destruct s; reflexivity.
  - destruct s; vm_compute; reflexivity.
Qed.

(* holds of every integer b; the state names are those of NMT_STATES by state_name_spec *)
Lemma heartbeat_decoding_any : forall lp own oth w b rest,
  let w' := fst (step lp own oth w (EHb (b :: rest))) in
  w_m w' = ref_hb_code b /\
  step lp own oth w (EHb (Z.lxor b 128 :: rest)) = step lp own oth w (EHb (b :: rest)) /\
  w_s w' = w_s w /\
  (b mod 128 = 0 -> state_name (w_m w') = str_codes "PRE-OPERATIONAL") /\
  (forall s, b mod 128 = st_code s -> s <> Initialising -> state_name (w_m w') = str_codes (st_name s)).
Proof.
  intros lp own oth w b rest w'. subst w'. cbn [step]. rewrite !deliver_hb_cons. cbn [fst w_m w_s set_m].
  replace (hb_state (Z.lxor b 128)) with (hb_state b) by (unfold hb_state; now rewrite toggle_ignored).
  rewrite toggle_ignored, hb_state_ref. unfold ref_hb_code. repeat split.
  - intros ->. exact (state_name_spec PreOperational).
  - intros s E NI. rewrite E. destruct s; [contradiction|exact (state_name_spec _)..].
Qed.

Lemma heartbeat_decoding : forall lp own oth w b rest, 0 <= b < 256 ->
  let w' := fst (step lp own oth w (EHb (b :: rest))) in
  w_m w' = ref_hb_code b /\
  w_m w' = (if b mod 128 =? 0 then 127 else b mod 128) /\
  step lp own oth w (EHb (Z.lxor b 128 :: rest)) = step lp own oth w (EHb (b :: rest)) /\
  w_s w' = w_s w /\
  (b mod 128 = 0 -> state_name (w_m w') = str_codes "PRE-OPERATIONAL") /\
  (forall s, b mod 128 = st_code s -> s <> Initialising -> state_name (w_m w') = str_codes (st_name s)).
Proof.
  intros lp own oth w b rest _ w'. destruct (heartbeat_decoding_any lp own oth w b rest) as (H1 & H2 & H3).
  split; [exact H1|]. split; [exact H1|exact (conj H2 H3)].
Qed.

Lemma hb_fold_app : forall m l b, hb_fold m (l ++ [b]) = (hb_state b, Some (Z.land b 127)).
Proof. intros. unfold hb_fold. rewrite fold_left_app. reflexivity. Qed.

Lemma hb_fold_nil : forall m, hb_fold m [] = m.
Proof. reflexivity. Qed.

Lemma wait_heartbeat_spec : forall m arrivals,
  (arrivals = [] -> wait_for_heartbeat m arrivals = ((fst m, None), Err E_NMT)) /\
  (forall l b, arrivals = l ++ [b] ->
     wait_for_heartbeat m arrivals =
       ((ref_hb_code b, Some (b mod 128)), Ok (state_name (ref_hb_code b)))).
Proof.
  intros m arrivals. split.
  - intros ->. reflexivity.
  - intros l b ->. unfold wait_for_heartbeat. rewrite hb_fold_app. cbn [fst snd].
    rewrite hb_state_ref, land_127. reflexivity.
Qed.

Definition quiet (sl : bool * list Z) : Prop := fst sl = false /\ woken_by_bootup (snd sl) = false.

Lemma hb_fold_bootup : forall st arr,
  if woken_by_bootup arr then hb_fold (st, None) arr = (127, Some 0)
  else snd (hb_fold (st, None) arr) <> Some 0.
Proof.
  intros st arr. unfold woken_by_bootup, is_bootup.
  destruct arr as [|a r _] using rev_ind; [cbn; discriminate|].
  rewrite hb_fold_app, rev_unit. unfold hb_state. rewrite land_127.
  destruct (Z.eqb_spec (a mod 128) 0) as [->|N]; [reflexivity|]. cbn [snd]. congruence.
Qed.

Lemma wait_bootup_spec : forall pre m,
  Forall quiet pre ->
  (forall arr post, woken_by_bootup arr = true ->
     snd (wait_for_bootup m (pre ++ (false, arr) :: post)) = Ok tt /\
     fst (fst (wait_for_bootup m (pre ++ (false, arr) :: post))) = 127) /\
  (forall arr post, snd (wait_for_bootup m (pre ++ (true, arr) :: post)) = Err E_NMT) /\
  snd (wait_for_bootup m pre) = Err E_FUEL.
Proof.
  induction pre as [|[late a] r IH]; intros m Q.
  - split; [|split].
    + intros arr post W. cbn [app wait_for_bootup].
      pose proof (hb_fold_bootup (fst m) arr) as B. rewrite W in B. rewrite B. split; reflexivity.
    + intros arr post. cbn [app wait_for_bootup]. reflexivity.
    + reflexivity.
  - inversion Q as [|x l [Q1 Q2] Q3]; subst. cbn [fst snd] in Q1, Q2. subst late.
    pose proof (hb_fold_bootup (fst m) a) as NB. rewrite Q2 in NB.
    assert (U : forall rest, wait_for_bootup m ((false, a) :: rest) =
                             wait_for_bootup (hb_fold (fst m, None) a) rest).
    { intros rest. cbn [wait_for_bootup]. destruct (snd (hb_fold (fst m, None) a)) as [z|] eqn:E; auto.
      destruct z; auto. contradiction. }
    specialize (IH (hb_fold (fst m, None) a) Q3). destruct IH as [I1 [I2 I3]].
    split; [|split].
    + intros arr post W. rewrite <- app_comm_cons, U. apply I1. exact W.
    + intros arr post. rewrite <- app_comm_cons, U. apply I2.
    + rewrite U. apply I3.
Qed.
