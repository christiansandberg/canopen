(* Proofs about Model/Periodic.v (C17).

   Every call addresses one producer and does one of four things to the bus and to that producer's
   handle ([moves]); the abstract invariant [AInv] survives each of them whatever the other producers
   hold.  A state setter leaves the other producers alone ([frames]).  What remains per producer is that
   the handle it is left with is [current]: [hb_ok], [pd_ok]. *)
From Coq Require Import ZArith List Bool Lia.
From CV Require Import Base.Val Base.Bytes Gen.PeriodicTables Model.Periodic.
Import ListNotations.
Open Scope Z_scope.

Lemma prod_eq_dec (p q : prod) : {p = q} + {p <> q}.
Proof. decide equality. apply Nat.eq_dec. Qed.

Lemma upd_length {A} (f : A -> A) l n : length (upd f l n) = length l.
Proof. revert n. induction l as [|x r IH]; intros [|n]; cbn; auto. Qed.

Lemma nth_upd_eq {A} (f : A -> A) l n d : (n < length l)%nat -> nth n (upd f l n) d = f (nth n l d).
Proof. revert n. induction l as [|x r IH]; intros [|n] H; cbn in *; try lia; auto. apply IH. lia. Qed.

Lemma nth_upd_neq {A} (f : A -> A) l n m d : m <> n -> nth m (upd f l n) d = nth m l d.
Proof. revert n m. induction l as [|x r IH]; intros [|n] [|m] H; cbn; auto; try congruence. Qed.

Lemma upd_oob {A} (f : A -> A) l n : (length l <= n)%nat -> upd f l n = l.
Proof. revert n. induction l as [|x r IH]; intros [|n] H; cbn in *; auto; try lia. f_equal. apply IH. lia. Qed.

Lemma nth_error_upd_eq {A} (f : A -> A) l n : nth_error (upd f l n) n = option_map f (nth_error l n).
Proof. revert n. induction l as [|x r IH]; intros [|n]; cbn; auto. Qed.

Lemma nth_error_upd_neq {A} (f : A -> A) l n m : m <> n -> nth_error (upd f l n) m = nth_error l m.
Proof. revert n m. induction l as [|x r IH]; intros [|n] [|m] H; cbn; auto; try congruence. Qed.

Lemma upd_app {A} (f : A -> A) pre x r : upd f (pre ++ x :: r) (length pre) = pre ++ f x :: r.
Proof. induction pre as [|y pre IH]; cbn; [reflexivity|]. f_equal. exact IH. Qed.

Lemma alive_lt b t : bus_alive b t = true -> (t < length b)%nat.
Proof.
  unfold bus_alive, bus_get. intros H. destruct (Nat.lt_ge_cases t (length b)); auto.
  rewrite nth_overflow in H by lia. discriminate.
Qed.

Lemma get_stop_neq b t t' : t' <> t -> bus_get (bus_stop b t) t' = bus_get b t'.
Proof. intros. unfold bus_get, bus_stop. apply nth_upd_neq; auto. Qed.

Lemma alive_stop_eq b t : bus_alive (bus_stop b t) t = false.
Proof.
  unfold bus_alive, bus_get, bus_stop. destruct (Nat.lt_ge_cases t (length b)).
  - rewrite nth_upd_eq by auto. reflexivity.
  - rewrite nth_overflow; [reflexivity|]. rewrite upd_length. lia.
Qed.

Lemma alive_stop b t t' : bus_alive (bus_stop b t) t' = true -> bus_alive b t' = true /\ t' <> t.
Proof.
  intros H. destruct (Nat.eq_dec t' t) as [->|N].
  - rewrite alive_stop_eq in H. discriminate.
  - unfold bus_alive in *. rewrite get_stop_neq in H by auto. auto.
Qed.

Lemma get_app_old b x t : (t < length b)%nat -> bus_get (b ++ [x]) t = bus_get b t.
Proof. intros. unfold bus_get. apply app_nth1. auto. Qed.

Lemma get_app_new b x : bus_get (b ++ [x]) (length b) = x.
Proof. unfold bus_get. rewrite app_nth2 by lia. rewrite Nat.sub_diag. reflexivity. Qed.

Lemma alive_app b x t : bus_alive (b ++ [x]) t = true -> bus_alive b t = true \/ t = length b.
Proof.
  intros H. pose proof (alive_lt _ _ H) as L. rewrite app_length in L. cbn in L.
  destruct (Nat.eq_dec t (length b)); auto. left.
  unfold bus_alive in *. rewrite get_app_old in H by lia. auto.
Qed.

Lemma get_modify_neq b t t' d : t' <> t -> bus_get (bus_modify b t d) t' = bus_get b t'.
Proof. intros. unfold bus_get, bus_modify. apply nth_upd_neq; auto. Qed.

Lemma get_modify_eq b t d : (t < length b)%nat -> bus_get (bus_modify b t d) t = set_data d (bus_get b t).
Proof. intros. unfold bus_get, bus_modify. apply nth_upd_eq; auto. Qed.

Lemma alive_modify b t d t' : bus_alive (bus_modify b t d) t' = bus_alive b t'.
Proof.
  destruct (Nat.eq_dec t' t) as [->|N].
  - unfold bus_alive. destruct (Nat.lt_ge_cases t (length b)).
    + rewrite get_modify_eq by auto. reflexivity.
    + unfold bus_modify. rewrite upd_oob by auto. reflexivity.
  - unfold bus_alive. rewrite get_modify_neq by auto. reflexivity.
Qed.

Lemma stop_length b t : length (bus_stop b t) = length b.
Proof. apply upd_length. Qed.

Lemma stop_opt_length b o : length (stop_opt b o) = length b.
Proof. destruct o; cbn; auto. apply stop_length. Qed.

Lemma carries_alive b pt : carries (bus_get b (pt_tid pt)) pt -> bus_alive b (pt_tid pt) = true.
Proof. intros [H _]. exact H. Qed.

(* What a call does to the bus [b] and to the handle [t] of the producer it addresses: nothing, stop(),
   stop() followed by a new task, or modify_data on the task held. *)
Inductive moves (b : bus) : option ptask -> bus -> option ptask -> Prop :=
| mv_keep t : moves b t b t
| mv_stop t : moves b t (stop_opt b t) None
| mv_start t id d per r :
    moves b t (stop_opt b t ++ [mkB id d per r true]) (Some (mkP (length (stop_opt b t)) id d per r))
| mv_modify pt d :
    moves b (Some pt) (bus_modify b (pt_tid pt) d) (Some (mkP (pt_tid pt) (pt_can pt) d (pt_period pt) (pt_remote pt))).

Definition is_task (t : option ptask) (n : nat) : Prop := exists pt, t = Some pt /\ pt_tid pt = n.

Lemma get_stop_opt b t n : ~ is_task t n -> bus_get (stop_opt b t) n = bus_get b n.
Proof. destruct t as [pt|]; [|reflexivity]. intros NH. apply get_stop_neq. intros ->. apply NH. exists pt; auto. Qed.

Lemma alive_stop_opt b t n : bus_alive (stop_opt b t) n = true -> bus_alive b n = true /\ ~ is_task t n.
Proof.
  destruct t as [pt|]; cbn; intros H.
  - apply alive_stop in H as [A N]. split; [exact A|]. intros (pt' & [= <-] & E). exact (N (eq_sym E)).
  - split; [exact H|]. intros (pt' & [=] & _).
Qed.

Lemma moves_frame b t b' t' n :
  moves b t b' t' -> (n < length b)%nat -> ~ is_task t n -> bus_get b' n = bus_get b n.
Proof.
  intros M Lt NH. destruct M as [t|t|t id d per r|pt d].
  - reflexivity.
  - apply get_stop_opt, NH.
  - rewrite get_app_old by (rewrite stop_opt_length; exact Lt). apply get_stop_opt, NH.
  - apply get_modify_neq. intros ->. apply NH. exists pt; auto.
Qed.

Lemma moves_new b t b' t' pt' :
  moves b t b' t' -> (forall pt, t = Some pt -> carries (bus_get b (pt_tid pt)) pt) -> t' = Some pt' ->
  carries (bus_get b' (pt_tid pt')) pt' /\ (is_task t (pt_tid pt') \/ (length b <= pt_tid pt')%nat).
Proof.
  intros M C E. destruct M as [t|t|t id d per r|pt d]; [|discriminate|injection E as <-; cbn [pt_tid]..].
  - split; [exact (C _ E)|]. left. exists pt'; auto.
  - rewrite get_app_new, stop_opt_length. split; [repeat split|right; constructor].
  - destruct (C pt eq_refl) as (c1 & c2 & c3 & c4 & c5). rewrite get_modify_eq by (apply alive_lt; exact c1).
    split; [repeat split; assumption|]. left. exists pt; auto.
Qed.

Lemma moves_alive b t b' t' n :
  moves b t b' t' -> bus_alive b' n = true -> (bus_alive b n = true /\ ~ is_task t n) \/ is_task t' n.
Proof.
  intros M H. destruct M as [t|t|t id d per r|pt d].
  - destruct t as [pt|]; [destruct (Nat.eq_dec (pt_tid pt) n) as [E|N]|].
    + right. exists pt; auto.
    + left. split; [exact H|]. intros (pt' & [= <-] & E). exact (N E).
    + left. split; [exact H|]. intros (pt' & [=] & _).
  - left. apply alive_stop_opt, H.
  - apply alive_app in H as [H| ->]; [left; apply alive_stop_opt, H|]. right. eexists. split; reflexivity.
  - rewrite alive_modify in H. destruct (Nat.eq_dec (pt_tid pt) n) as [E|N].
    + right. eexists. split; [reflexivity|exact E].
    + left. split; [exact H|]. intros (pt' & [= <-] & E). exact (N E).
Qed.

Lemma AInv_moves b tk b' tk' p :
  AInv b tk -> moves b (tk p) b' (tk' p) -> (forall q, q <> p -> tk' q = tk q) -> AInv b' tk'.
Proof.
  intros (C & D & N) M Ho.
  assert (forall q qt, q <> p -> tk' q = Some qt ->
            tk q = Some qt /\ (pt_tid qt < length b)%nat /\ ~ is_task (tk p) (pt_tid qt)) as Oth.
  { intros q qt Nq Hq. rewrite Ho in Hq by exact Nq. split; [exact Hq|].
    split; [apply alive_lt, carries_alive, (C q), Hq|]. intros (pt & Hp & E). exact (Nq (D q p qt pt Hq Hp (eq_sym E))). }
  assert (forall pt q qt, tk' p = Some pt -> q <> p -> tk' q = Some qt -> pt_tid pt <> pt_tid qt) as New.
  { intros pt q qt Hp Nq Hq E. destruct (Oth q qt Nq Hq) as (_ & Lt & NH).
    destruct (proj2 (moves_new _ _ _ _ _ M (C p) Hp)) as [H|H]; [rewrite E in H; exact (NH H)|lia]. }
  split; [|split].
  - intros q qt Hq. destruct (prod_eq_dec q p) as [->|Nq]; [exact (proj1 (moves_new _ _ _ _ _ M (C p) Hq))|].
    destruct (Oth q qt Nq Hq) as (Hq0 & Lt & NH). rewrite (moves_frame _ _ _ _ _ M Lt NH). exact (C q qt Hq0).
  - intros q q' qt qt' Hq Hq' E. destruct (prod_eq_dec q p) as [->|Nq], (prod_eq_dec q' p) as [->|Nq']; auto.
    + destruct (New _ _ _ Hq Nq' Hq' E).
    + destruct (New _ _ _ Hq' Nq Hq (eq_sym E)).
    + exact (D _ _ _ _ (proj1 (Oth _ _ Nq Hq)) (proj1 (Oth _ _ Nq' Hq')) E).
  - intros n Hn. destruct (moves_alive _ _ _ _ n M Hn) as [[A NH]|(pt & Hp & E)]; [|exists p, pt; auto].
    destruct (N n A) as (q & qt & Hq & E). exists q, qt. split; [|exact E].
    rewrite Ho; [exact Hq|]. intros ->. apply NH. exists qt; auto.
Qed.

Lemma pt_update_moves m b pt d b' pt' : pt_update m b pt d = (b', pt') -> moves b (Some pt) b' (Some pt').
Proof.
  unfold pt_update. destruct m; [|destruct (list_Z_eqb d (pt_data pt)) eqn:E]; intros U; injection U as <- <-.
  - apply mv_modify.
  - apply list_Z_eqb_eq in E. subst d. destruct pt. apply mv_keep.
  - rewrite <- (stop_length b (pt_tid pt)). apply (mv_start b (Some pt)).
Qed.

Lemma pt_update_fields m b pt d b' pt' :
  pt_update m b pt d = (b', pt') ->
  pt_can pt' = pt_can pt /\ pt_data pt' = d /\ pt_period pt' = pt_period pt /\ pt_remote pt' = pt_remote pt.
Proof.
  unfold pt_update. destruct m; [|destruct (list_Z_eqb d (pt_data pt))]; intros U; injection U as <- <-; cbn; auto.
Qed.

Section Inv.
Context (X : prod -> Prop).

Definition frames (p : prod) (s s' : state) : Prop :=
  forall q, q <> p -> task_of s' q = task_of s q /\ forall pt, current X s q pt -> current X s' q pt.

Lemma inv_move s s' p :
  inv X s -> frames p s s' -> moves (st_bus s) (task_of s p) (st_bus s') (task_of s' p) ->
  match task_of s' p with Some pt => current X s' p pt | None => True end -> inv X s'.
Proof.
  intros [A C] F M G. split.
  - apply (AInv_moves _ _ _ _ p A M). intros q N. apply F, N.
  - intros q pt Hq. destruct (prod_eq_dec q p) as [->|N]; [rewrite Hq in G; exact G|].
    destruct (F q N) as [E K]. apply K, C. rewrite <- E. exact Hq.
Qed.

Lemma frame_sync s b y : frames PSync s (set_sync s b y).
Proof. intros q N. destruct q; try congruence; split; auto. Qed.

Lemma frame_hb s b h : frames PHb s (set_hb s b h).
Proof. intros q N. destruct q; try congruence; split; auto. Qed.

Lemma frame_guard s b g : frames PGuard s (set_guard s b g).
Proof. intros q N. destruct q; try congruence; split; auto. Qed.

Lemma frame_pdo s b i pd : frames (PPdo i) s (set_pdo s b i pd).
Proof.
  intros q N. destruct q as [| | |j]; try (split; auto; fail).
  assert (j <> i) by congruence. unfold set_pdo, current; cbn. rewrite nth_error_upd_neq by auto. split; auto.
Qed.

Lemma task_set_pdo s b i pd pd0 : nth_error (st_pdos s) i = Some pd0 ->
  task_of (set_pdo s b i pd) (PPdo i) = pd_task pd /\ nth_error (st_pdos (set_pdo s b i pd)) i = Some pd.
Proof. intros H. cbn. rewrite nth_error_upd_eq, H. cbn. auto. Qed.

Lemma inv_sync_stop s : inv X s -> inv X (sync_stop s).
Proof. intros I. apply (inv_move s _ PSync I (frame_sync _ _ _)); [apply mv_stop|exact Logic.I]. Qed.

(* the period attribute alone is stored (an assignment to SyncProducer.period, or start(0), which raises
   before it touches the task): the producer must be exempted, or the period be 0, which [attrs_current]
   does not compare *)
Lemma inv_sync_attr s p :
  X PSync \/ p = Some 0 -> inv X s -> inv X (set_sync s (st_bus s) (mkSy p (sy_task (st_sync s)))).
Proof.
  intros HX I. apply (inv_move s _ PSync I (frame_sync _ _ _)); [apply mv_keep|].
  cbn [set_sync task_of st_sync sy_task]. destruct (sy_task (st_sync s)) as [pt|] eqn:H; [|exact Logic.I].
  split; [exact (proj1 (proj2 I PSync pt H))|]. intros NX. destruct HX as [HX| ->]; [contradiction|].
  exists 0. split; [reflexivity|]. intros []. reflexivity.
Qed.

Lemma inv_sync_start s p : inv X s -> inv X (fst (sync_start s p)).
Proof.
  intros I. unfold sync_start. destruct (match p with Some x => Some x | None => _ end) as [x|]; [|exact I].
  destruct (Z.eqb_spec x 0) as [->|Nz]; [apply inv_sync_attr; auto|].
  unfold send_periodic; destruct (st_conn s); cbn [fst]; apply (inv_move s _ PSync I (frame_sync _ _ _)).
  - apply mv_start.
  - split; [repeat split; exact Nz|]. intros _. exists x. split; reflexivity.
  - apply mv_stop.
  - exact Logic.I.
Qed.

Lemma inv_guard_stop s : inv X s -> inv X (guard_stop s).
Proof. intros I. apply (inv_move s _ PGuard I (frame_guard _ _ _)); [apply mv_stop|exact Logic.I]. Qed.

Lemma inv_guard_start s p : inv X s -> inv X (fst (guard_start s p)).
Proof.
  intros I. unfold guard_start, send_periodic. destruct (st_conn s); cbn [fst];
    apply (inv_move s _ PGuard I (frame_guard _ _ _)).
  - apply mv_start.
  - repeat split.
  - apply mv_stop.
  - exact Logic.I.
Qed.

Definition hb_ok (conn : bool) (h : hb_st) : Prop :=
  match hb_task h with
  | None => True
  | Some pt =>
      pt_can pt = HB_BASE + hb_node h /\ pt_remote pt = false /\ pt_period pt = hb_ms h /\ 0 < hb_ms h /\
      (conn = true -> pt_data pt = [hb_state h])
  end.

Lemma inv_hb_ok s : inv X s -> hb_ok (st_conn s) (st_hb s).
Proof.
  intros I. unfold hb_ok. destruct (hb_task (st_hb s)) as [pt|] eqn:H; [|exact Logic.I].
  exact (proj1 (proj2 I PHb pt H)).
Qed.

Lemma inv_set_hb s b h :
  inv X s -> moves (st_bus s) (hb_task (st_hb s)) b (hb_task h) /\ hb_ok (st_conn s) h -> inv X (set_hb s b h).
Proof.
  intros I [M G]. apply (inv_move s _ PHb I (frame_hb _ _ _) M).
  unfold hb_ok in G. cbn [set_hb task_of st_hb]. destruct (hb_task h); [|exact Logic.I].
  split; [exact G|]. intros _. exact Logic.I.
Qed.

(* without the connection the payload clause is void: the NMT state may then differ *)
Lemma hb_ok_off conn h h0 :
  hb_ok conn h -> hb_task h0 = hb_task h -> hb_node h0 = hb_node h -> hb_ms h0 = hb_ms h -> hb_ok false h0.
Proof.
  unfold hb_ok. intros G -> -> ->. destruct (hb_task h); [|exact Logic.I].
  destruct G as (c1 & c2 & c3 & c4 & _). repeat split; auto. discriminate.
Qed.

(* Stated on the triple the call returns, not from an equation [hb_start1 ... = (b1, h1, r)]: [injection]
   on such an equation simplifies [HB_BASE + hb_node h] into a match over the digits of the node id,
   which every later step and the kernel then carry. *)
Lemma hb_start1_spec conn b h ms :
  let '(b1, h1, _) := hb_start1 conn b h ms in moves b (hb_task h) b1 (hb_task h1) /\ hb_ok conn h1.
Proof.
  unfold hb_start1, send_periodic. destruct (Z.ltb_spec 0 ms) as [Pos|_]; [destruct conn|];
    (split; [constructor|]); try exact Logic.I.
  repeat split. exact Pos.
Qed.

(* update() repairs the payload clause *)
Lemma hb_update1_spec m conn b h :
  hb_ok false h ->
  let '(b1, h1) := hb_update1 m b h in moves b (hb_task h) b1 (hb_task h1) /\ hb_ok conn h1.
Proof.
  unfold hb_update1, hb_ok. intros G. destruct (hb_task h) as [pt|] eqn:T.
  - destruct (pt_update m b pt [hb_state h]) as [b' pt'] eqn:U.
    split; [exact (pt_update_moves _ _ _ _ _ _ U)|].
    destruct G as (c1 & c2 & c3 & c4 & _). apply pt_update_fields in U as (u1 & u2 & u3 & u4).
    cbn [hb_task hb_set hb_node hb_ms hb_state]. rewrite u1, u2, u3, u4. repeat split; auto.
  - rewrite T. split; [apply mv_keep|exact Logic.I].
Qed.

(* [h0] is the heartbeat record as the method finds it: same handle, node and period as in [s],
   possibly a new NMT state.  The conclusions have the form in which [step] and its callees use the calls. *)
Lemma inv_hb_start s h0 ms :
  inv X s -> hb_task h0 = hb_task (st_hb s) ->
  inv X (fst (let '(b1, h1, r) := hb_start1 (st_conn s) (st_bus s) h0 ms in (set_hb s b1 h1, r))).
Proof.
  intros I Et. pose proof (hb_start1_spec (st_conn s) (st_bus s) h0 ms) as S.
  destruct (hb_start1 _ _ _ _) as [[b1 h1] r]. rewrite Et in S. exact (inv_set_hb s b1 h1 I S).
Qed.

Lemma inv_hb_update s h0 :
  inv X s -> hb_task h0 = hb_task (st_hb s) -> hb_node h0 = hb_node (st_hb s) -> hb_ms h0 = hb_ms (st_hb s) ->
  inv X (fst (let '(b1, h1) := hb_update1 (st_modify s) (st_bus s) h0 in (set_hb s b1 h1, ok))).
Proof.
  intros I Et En Em.
  pose proof (hb_update1_spec (st_modify s) (st_conn s) (st_bus s) h0 (hb_ok_off _ _ _ (inv_hb_ok s I) Et En Em)) as S.
  destruct (hb_update1 _ _ _) as [b1 h1]. rewrite Et in S. exact (inv_set_hb s b1 h1 I S).
Qed.

Lemma inv_nmt_cmd s code : inv X s -> inv X (fst (nmt_cmd s code)).
Proof.
  intros I. unfold nmt_cmd. set (h0 := hb_set (st_hb s) _ _ _ _). destruct (_ && negb (st_conn s)) eqn:B; [|clear B; destruct (_ && _)].
  - (* the boot-up message raises: the NMT state alone has changed, and the network is not connected *)
    apply andb_true_iff in B as [_ B]. apply negb_true_iff in B.
    apply inv_set_hb; [exact I|]. split; [apply mv_keep|]. rewrite B.
    apply (hb_ok_off _ _ _ (inv_hb_ok s I)); reflexivity.
  - exact (inv_hb_start s h0 _ I eq_refl).
  - exact (inv_hb_update s h0 I eq_refl eq_refl eq_refl).
Qed.

Lemma inv_nmt_recv s code node : inv X s -> inv X (fst (nmt_recv s code node)).
Proof. intros I. unfold nmt_recv. cbv zeta. apply inv_hb_update; [exact I|reflexivity..]. Qed.

(* the value stored in object 0x1017 afterwards is in no clause of the invariant *)
Lemma inv_obj_write s idx v : inv X s -> inv X (fst (obj_write s idx v)).
Proof.
  intros I. unfold obj_write. destruct (_ || _); [exact I|]. destruct (idx =? _); [|exact I]. destruct (v =? 0).
  - apply (inv_set_hb s _ _ I). split; [apply mv_stop|exact Logic.I].
  - pose proof (hb_start1_spec (st_conn s) (st_bus s) (st_hb s) v) as S.
    destruct (hb_start1 _ _ _ _) as [[b1 h1] r]. destruct r; exact (inv_set_hb s _ _ I S).
Qed.

Definition pd_ok (i : nat) (pd : pdo_st) : Prop :=
  match pd_task pd with
  | None => True
  | Some pt =>
      (pt_remote pt = false /\ pt_period pt <> 0) /\
      (~ X (PPdo i) -> pt_can pt = pd_cob pd /\ pd_period pd = Some (pt_period pt))
  end.

Lemma inv_pd_ok s i pd : inv X s -> nth_error (st_pdos s) i = Some pd -> pd_ok i pd.
Proof.
  intros I Hi. unfold pd_ok. destruct (pd_task pd) as [pt|] eqn:H; [|exact Logic.I].
  destruct (proj2 I (PPdo i) pt) as [CF CA]; [cbn [task_of]; rewrite Hi; exact H|].
  split; [exact CF|]. intros NX. destruct (CA NX) as (pd' & E & a). rewrite Hi in E. injection E as <-. exact a.
Qed.

Lemma inv_set_pdo s i pd b pd1 :
  inv X s -> nth_error (st_pdos s) i = Some pd ->
  moves (st_bus s) (pd_task pd) b (pd_task pd1) /\ pd_ok i pd1 -> inv X (set_pdo s b i pd1).
Proof.
  intros I Hi [M G]. destruct (task_set_pdo s b i pd1 pd Hi) as [T1 N1].
  apply (inv_move s _ (PPdo i) I (frame_pdo _ _ _ _)); rewrite T1.
  - cbn [task_of]. rewrite Hi. exact M.
  - unfold pd_ok in G. destruct (pd_task pd1) as [pt|]; [|exact Logic.I]. split; [exact (proj1 G)|].
    intros NX. exists pd1. split; [exact N1|exact (proj2 G NX)].
Qed.

Lemma pdo_start1_spec conn b pd p i :
  let '(b1, pd1, _) := pdo_start1 conn b pd p in moves b (pd_task pd) b1 (pd_task pd1) /\ pd_ok i pd1.
Proof.
  unfold pdo_start1, send_periodic.
  destruct (match p with Some x => Some x | None => _ end) as [x|]; [destruct (Z.eqb_spec x 0); [|destruct conn]|];
    (split; [constructor|]); try exact Logic.I.
  repeat split; auto.
Qed.

Lemma pdo_update1_spec m b pd i :
  pd_ok i pd -> let '(b1, pd1) := pdo_update1 m b pd in moves b (pd_task pd) b1 (pd_task pd1) /\ pd_ok i pd1.
Proof.
  unfold pdo_update1, pd_ok. intros G. destruct (pd_task pd) as [pt|] eqn:T.
  - destruct (pt_update m b pt (pd_data pd)) as [b' pt'] eqn:U. split; [exact (pt_update_moves _ _ _ _ _ _ U)|].
    apply pt_update_fields in U as (u1 & u2 & u3 & u4).
    cbn [pd_task pd_cob pd_period]. rewrite u1, u3, u4. exact G.
  - rewrite T. split; [apply mv_keep|exact Logic.I].
Qed.

(* a store into the map that leaves its handle alone: the payload (not compared by the invariant), or
   PdoMap.cob_id / PdoMap.period, for which the map must be exempted *)
Lemma inv_pdo_keep s i pd pd1 :
  inv X s -> nth_error (st_pdos s) i = Some pd -> pd_task pd1 = pd_task pd ->
  X (PPdo i) \/ (pd_cob pd1 = pd_cob pd /\ pd_period pd1 = pd_period pd) ->
  inv X (set_pdo s (st_bus s) i pd1).
Proof.
  intros I Hi Et HX. apply (inv_set_pdo _ _ pd _ _ I Hi). rewrite Et. split; [apply mv_keep|].
  pose proof (inv_pd_ok _ _ _ I Hi) as G. unfold pd_ok in *. rewrite Et. destruct (pd_task pd); [|exact Logic.I].
  split; [exact (proj1 G)|]. intros NX. destruct HX as [HX|[-> ->]]; [contradiction|exact (proj2 G NX)].
Qed.

Definition pd_clear (pd : pdo_st) : pdo_st := mkPd (pd_cob pd) (pd_nvars pd) (pd_data pd) (pd_period pd) None.

Lemma stop_all_maps l : forall b, snd (stop_all b l) = map pd_clear l.
Proof.
  induction l as [|pd r IH]; intros b; cbn; [reflexivity|].
  rewrite <- (IH (stop_opt b (pd_task pd))). destruct (stop_all _ r). reflexivity.
Qed.

(* stop_all is PdoMap.stop() on one map after the other; [pre] are the maps already done *)
Lemma inv_stop_all l : forall pre s b' l', inv X s -> st_pdos s = pre ++ l ->
  stop_all (st_bus s) l = (b', l') -> inv X (set_pdos s b' (pre ++ l')).
Proof.
  induction l as [|pd r IH]; intros pre s b' l' I E S; cbn in S.
  - injection S as <- <-. rewrite <- E. destruct s. exact I.
  - destruct (stop_all (stop_opt (st_bus s) (pd_task pd)) r) as [b2 r'] eqn:S2. injection S as <- <-.
    assert (nth_error (st_pdos s) (length pre) = Some pd) as Hi by (rewrite E, nth_error_app2, Nat.sub_diag; auto).
    pose proof (inv_set_pdo s _ pd _ (pd_clear pd) I Hi (conj (mv_stop _ _) Logic.I)) as I1.
    apply (IH (pre ++ [pd_clear pd]) _ b2 r') in I1; [|cbn; rewrite E, upd_app, <- app_assoc; reflexivity|exact S2].
    rewrite <- app_assoc in I1. exact I1.
Qed.

Lemma inv_conn_off s :
  inv X s -> inv X (mkS (st_modify s) false (st_bus s) (st_sync s) (st_pdos s) (st_hb s) (st_guard s)).
Proof.
  intros I. split; [exact (proj1 I)|]. intros p pt H. destruct (proj2 I p pt H) as [CF CA].
  split; [|exact CA]. destruct p; try exact CF.
  pose proof (hb_ok_off _ _ (st_hb s) (inv_hb_ok s I) eq_refl eq_refl eq_refl) as G.
  unfold hb_ok in G. cbn [task_of st_hb] in H. rewrite H in G. exact G.
Qed.

Lemma inv_disconnect s : inv X s -> inv X (disconnect s).
Proof.
  intros I. unfold disconnect. destruct (stop_all (st_bus s) (st_pdos s)) as [b1 l1] eqn:S.
  exact (inv_conn_off _ (inv_stop_all _ [] s b1 l1 I eq_refl S)).
Qed.

Lemma inv_init c : inv X (init c).
Proof.
  assert (forall p, task_of (init c) p = None) as T.
  { intros [| | |i]; try reflexivity. cbn. rewrite nth_error_map. destruct (nth_error (cf_pdos c) i); reflexivity. }
  split; [split; [|split]|].
  - intros p pt H. rewrite T in H. discriminate.
  - intros p q pt qt H. rewrite T in H. discriminate.
  - intros [|t] H; discriminate.
  - intros p pt H. rewrite T in H. discriminate.
Qed.

Lemma step_inv s o : (forall p, touches o p = true -> X p) -> inv X s -> inv X (step_st s o).
Proof.
  intros HX I. unfold step_st.
  destruct o; cbn [step]; try (destruct (nth_error (st_pdos s) i) as [pd|] eqn:Hi; [|exact I]).
  - apply inv_sync_start, I.
  - apply inv_sync_stop, I.
  - pose proof (pdo_start1_spec (st_conn s) (st_bus s) pd p i) as S.
    destruct (pdo_start1 _ _ _ _) as [[b1 pd1] r]. exact (inv_set_pdo _ _ _ _ _ I Hi S).
  - apply (inv_set_pdo _ _ pd _ _ I Hi). split; [apply mv_stop|exact Logic.I].
  - pose proof (pdo_update1_spec (st_modify s) (st_bus s) pd i (inv_pd_ok _ _ _ I Hi)) as S.
    destruct (pdo_update1 _ _ _) as [b1 pd1]. exact (inv_set_pdo _ _ _ _ _ I Hi S).
  - destruct (negb _); [exact I|]. destruct (negb _); [exact I|].
    apply (inv_pdo_keep _ _ pd _ I Hi); [reflexivity|]. right. split; reflexivity.
  - apply (inv_pdo_keep _ _ pd _ I Hi); [reflexivity|]. right. split; reflexivity.
  - destruct (negb _); [exact I|]. destruct (negb _); [exact I|].
    pose proof (pdo_update1_spec (st_modify s) (st_bus s) (pd_set_data pd (slice_set (pd_data pd) k v)) i
                  (inv_pd_ok _ _ _ I Hi)) as S.
    destruct (pdo_update1 _ _ _) as [b1 pd1]. exact (inv_set_pdo _ _ pd _ _ I Hi S).
  - exact (inv_hb_start s _ ms I eq_refl).
  - apply (inv_set_hb _ _ _ I). split; [apply mv_stop|exact Logic.I].
  - exact (inv_hb_update s _ I eq_refl eq_refl eq_refl).
  - apply inv_nmt_cmd, I.
  - apply inv_nmt_recv, I.
  - apply inv_obj_write, I.
  - apply inv_guard_start, I.
  - apply inv_guard_stop, I.
  - apply inv_disconnect, I.
  - apply inv_sync_attr; [left; apply HX; reflexivity|exact I].
  - apply (inv_pdo_keep _ _ pd _ I Hi); [reflexivity|]. left. apply HX. cbn. apply Nat.eqb_refl.
  - apply (inv_pdo_keep _ _ pd _ I Hi); [reflexivity|]. left. apply HX. cbn. apply Nat.eqb_refl.
Qed.

Lemma run_inv ops : forall s, (forall o p, In o ops -> touches o p = true -> X p) -> inv X s -> inv X (run s ops).
Proof.
  induction ops as [|o r IH]; intros s HX I; cbn; auto. apply IH.
  - intros o' p Hin. apply HX. right. auto.
  - apply step_inv; auto. intros p. apply HX. left. auto.
Qed.
End Inv.

(* every producer exempted: the invariant that holds for every call sequence, attribute assignments
   included, leaves the attribute clause out for all producers *)
Definition XT : prod -> Prop := fun _ => True.

Lemma reachable_inv c ops : inv XT (run (init c) ops).
Proof. apply run_inv; [intros; exact I|apply inv_init]. Qed.

Lemma step_inv_T s o : inv XT s -> inv XT (step_st s o).
Proof. apply step_inv. intros; exact I. Qed.

Lemma none_running_of X s p : inv X s -> task_of s p = None -> none_running s p.
Proof.
  intros [(_ & _ & N) _] H. split; auto. intros t Ht. destruct (N t Ht) as (q & qt & Hq & E).
  exists q, qt. repeat split; auto. intros ->. congruence.
Qed.

Lemma task_after_stop s p : task_of (step_st s (stop_op p)) p = None.
Proof.
  destruct p as [| | |i]; try reflexivity. unfold step_st. cbn [stop_op step].
  destruct (nth_error (st_pdos s) i) as [pd|] eqn:Hi.
  - cbn [pdo_stop1 fst]. rewrite (proj1 (task_set_pdo s _ i _ pd Hi)). reflexivity.
  - cbn. rewrite Hi. reflexivity.
Qed.

Lemma stopped_means_none c ops p :
  none_running (step_st (run (init c) ops) (stop_op p)) p.
Proof. apply (none_running_of XT); [apply step_inv_T, reachable_inv|apply task_after_stop]. Qed.

Lemma heartbeat_zero_stops c ops :
  let s := run (init c) ops in
  none_running (step_st s (ObjWrite HB_TIME_INDEX 0)) PHb /\
  (forall ms, ms <= 0 -> none_running (step_st s (HbStart ms)) PHb) /\
  (forall pt, task_of s PHb = Some pt ->
     0 < hb_ms (st_hb s) /\ bt_period (bus_get (st_bus s) (pt_tid pt)) = hb_ms (st_hb s)).
Proof.
  intros s. pose proof (reachable_inv c ops) as I. fold s in I. split; [|split].
  - apply (none_running_of XT); [apply step_inv_T; auto|reflexivity].
  - intros ms Hms. apply (none_running_of XT); [apply step_inv_T; auto|].
    unfold step_st. cbn [step]. unfold hb_start1. replace (0 <? ms) with false by lia. reflexivity.
  - intros pt H. destruct (proj1 (proj1 I) _ _ H) as (_ & _ & _ & c4 & _).
    destruct (proj1 (proj2 I _ _ H)) as (_ & _ & k3 & k4 & _). split; [exact k4|congruence].
Qed.

Lemma started_intro X s s' p id d per r :
  inv X s ->
  st_bus s' = stop_opt (st_bus s) (task_of s p) ++ [mkB id d per r true] ->
  task_of s' p = Some (mkP (length (stop_opt (st_bus s) (task_of s p))) id d per r) ->
  started s s' p id d per r.
Proof.
  intros [(C & _) _] B T. rewrite stop_opt_length in T. split; [exact T|]. split.
  - rewrite B. rewrite <- (stop_opt_length (st_bus s) (task_of s p)). apply get_app_new.
  - intros old H. rewrite B, H. unfold bus_alive. rewrite get_app_old.
    + apply alive_stop_eq.
    + rewrite stop_opt_length. apply alive_lt, carries_alive, (C p), H.
Qed.

Definition eff_period (arg attr : option Z) : option Z := match arg with Some x => Some x | None => attr end.

Lemma restart_leaves_one c ops :
  let s := run (init c) ops in
  (forall p x, eff_period p (sy_period (st_sync s)) = Some x -> snd (step s (SyncStart p)) = None ->
     started s (step_st s (SyncStart p)) PSync SYNC_COB_ID [] x false) /\
  (forall i p x pd, nth_error (st_pdos s) i = Some pd -> eff_period p (pd_period pd) = Some x ->
     snd (step s (PdoStart i p)) = None ->
     started s (step_st s (PdoStart i p)) (PPdo i) (pd_cob pd) (pd_data pd) x false) /\
  (forall ms, 0 < ms -> snd (step s (HbStart ms)) = None ->
     started s (step_st s (HbStart ms)) PHb (HB_BASE + hb_node (st_hb s)) [hb_state (st_hb s)] ms false) /\
  (forall x, snd (step s (GuardStart x)) = None ->
     started s (step_st s (GuardStart x)) PGuard (HB_BASE + gd_node (st_guard s)) [] x true).
Proof.
  intros s. pose proof (reachable_inv c ops) as I. fold s in I. split; [|split; [|split]].
  - intros p x. unfold step_st, eff_period. cbn [step]. unfold sync_start, send_periodic. intros ->.
    destruct (x =? 0); [discriminate|]. destruct (st_conn s); [|discriminate]. intros _.
    apply (started_intro XT _ _ _ _ _ _ _ I); reflexivity.
  - intros i p x pd Hi. unfold step_st, eff_period. cbn [step]. rewrite Hi. unfold pdo_start1, send_periodic. intros ->.
    destruct (x =? 0); [discriminate|]. destruct (st_conn s); [|discriminate]. intros _. cbn [fst].
    apply (started_intro XT _ _ _ _ _ _ _ I).
    + cbn [task_of]. rewrite Hi. reflexivity.
    + rewrite (proj1 (task_set_pdo s _ i _ pd Hi)). cbn [task_of pd_task]. rewrite Hi. reflexivity.
  - intros ms Hms. unfold step_st. cbn [step]. unfold hb_start1, send_periodic.
    replace (0 <? ms) with true by lia. destruct (st_conn s); [|discriminate]. intros _.
    apply (started_intro XT _ _ _ _ _ _ _ I); reflexivity.
  - intros x. unfold step_st. cbn [step]. unfold guard_start, send_periodic.
    destruct (st_conn s); [|discriminate]. intros _.
    apply (started_intro XT _ _ _ _ _ _ _ I); reflexivity.
Qed.

(* a start that returns normally re-synchronises the task with the assignable attributes *)
Lemma start_sets_attrs s :
  (forall p, snd (step s (SyncStart p)) = None ->
     forall pt, task_of (step_st s (SyncStart p)) PSync = Some pt -> attrs_current (step_st s (SyncStart p)) PSync pt) /\
  (forall i p, snd (step s (PdoStart i p)) = None ->
     forall pt, task_of (step_st s (PdoStart i p)) (PPdo i) = Some pt ->
                attrs_current (step_st s (PdoStart i p)) (PPdo i) pt).
Proof.
  split.
  - intros p. unfold step_st. cbn [step]. unfold sync_start, send_periodic.
    destruct (match p with Some x => Some x | None => _ end) as [x|]; [|discriminate].
    destruct (x =? 0); [discriminate|]. destruct (st_conn s); [|discriminate]. intros _ pt. cbn.
    intros H; injection H as <-. exists x. auto.
  - (* whatever start() returns, a map that holds a task afterwards agrees with its attributes *)
    intros i p _ pt. unfold step_st. cbn [step].
    destruct (nth_error (st_pdos s) i) as [pd|] eqn:Hi; [|cbn [fst task_of]; rewrite Hi; discriminate].
    pose proof (pdo_start1_spec (fun _ => False) (st_conn s) (st_bus s) pd p i) as S.
    destruct (pdo_start1 _ _ _ _) as [[b1 pd1] r]. destruct S as [_ G]. cbn [fst].
    destruct (task_set_pdo s b1 i pd1 pd Hi) as [T1 N1]. rewrite T1. intros H.
    unfold pd_ok in G. rewrite H in G. exists pd1. split; [exact N1|]. apply G. intros [].
Qed.

(* ... and it stays synchronised until the application assigns one of those attributes again *)
Lemma attrs_stay_current c ops1 ops2 p :
  let s := run (init c) ops1 in
  (forall pt, task_of s p = Some pt -> attrs_current s p pt) ->
  (forall o, In o ops2 -> touches o p = false) ->
  forall pt, task_of (run s ops2) p = Some pt -> attrs_current (run s ops2) p pt.
Proof.
  intros s H0 HT pt Hpt.
  assert (inv (fun q => q <> p) s) as I.
  { destruct (reachable_inv c ops1) as [A C]. split; [exact A|]. intros q qt Hq. split; [exact (proj1 (C q qt Hq))|].
    intros NX. destruct (prod_eq_dec q p) as [->|N]; [auto|contradiction]. }
  apply (run_inv _ ops2) in I.
  - apply (proj2 I p pt Hpt). intros N. apply N. reflexivity.
  - intros o q Hin Tq ->. rewrite (HT o Hin) in Tq. discriminate.
Qed.

Lemma disconnect_clears s i : task_of (disconnect s) (PPdo i) = None.
Proof.
  unfold disconnect. pose proof (stop_all_maps (st_pdos s) (st_bus s)) as L.
  destruct (stop_all _ _) as [b1 l1]. cbn [snd] in L. subst l1.
  cbn. rewrite nth_error_map. destruct (nth_error _ i); reflexivity.
Qed.

Lemma disconnect_stops_pdo_tasks c ops :
  let s' := step_st (run (init c) ops) Disconnect in
  (forall i, task_of s' (PPdo i) = None) /\
  (forall t, bus_alive (st_bus s') t = true ->
     exists q qt, (forall i, q <> PPdo i) /\ task_of s' q = Some qt /\ pt_tid qt = t).
Proof.
  intros s'. pose proof (disconnect_clears (run (init c) ops) : forall i, task_of s' (PPdo i) = None) as PN.
  split; [exact PN|]. intros t Ht.
  destruct (step_inv_T _ Disconnect (reachable_inv c ops)) as [(_ & _ & N) _]. destruct (N t Ht) as (q & qt & Hq & E).
  exists q, qt. repeat split; auto. intros i ->. fold s' in Hq. rewrite PN in Hq. discriminate.
Qed.

(* the payload handed over by start() / update() / a variable write is the one on the wire *)
Definition synced (pd : pdo_st) : Prop :=
  match pd_task pd with Some pt => pt_data pt = pd_data pd | None => True end.

Lemma pdo_start1_synced conn b pd p : synced (snd (fst (pdo_start1 conn b pd p))).
Proof.
  unfold pdo_start1, send_periodic.
  destruct (match p with Some x => Some x | None => _ end) as [x|]; [destruct (x =? 0); [|destruct conn]|];
    first [exact I|reflexivity].
Qed.

Lemma pdo_update1_synced m b pd : synced (snd (pdo_update1 m b pd)).
Proof.
  unfold pdo_update1, synced. destruct (pd_task pd) as [pt|] eqn:T; [|cbn [snd]; rewrite T; exact I].
  destruct (pt_update m b pt (pd_data pd)) as [b' pt'] eqn:U. exact (proj1 (proj2 (pt_update_fields _ _ _ _ _ _ U))).
Qed.

Definition commits (o : op) (i : nat) : Prop :=
  (exists p, o = PdoStart i p) \/ o = PdoUpdate i \/ (exists k v, o = PdoSetVar i k v).

Lemma pdo_payload_current c ops o i :
  commits o i ->
  let s := run (init c) ops in
  snd (step s o) = None ->
  forall pd pt, nth_error (st_pdos (step_st s o)) i = Some pd -> pd_task pd = Some pt ->
    bt_data (bus_get (st_bus (step_st s o)) (pt_tid pt)) = pd_data pd.
Proof.
  intros Hc s R pd pt Hi T.
  destruct (proj1 (proj1 (step_inv_T s o (reachable_inv c ops))) (PPdo i) pt) as (_ & _ & c3 & _);
    [cbn [task_of]; rewrite Hi; exact T|]. rewrite c3.
  assert (synced pd) as S; [|unfold synced in S; rewrite T in S; exact S]. clear c3 T pt.
  unfold step_st in Hi.
  destruct Hc as [[p ->]|[->|(k & v & ->)]]; cbn [step] in Hi, R;
    (destruct (nth_error (st_pdos s) i) as [pd0|] eqn:H0; [|discriminate]).
  - pose proof (pdo_start1_synced (st_conn s) (st_bus s) pd0 p) as S.
    destruct (pdo_start1 _ _ _ _) as [[b1 pd1] r]. cbn [fst] in Hi.
    rewrite (proj2 (task_set_pdo s b1 i pd1 pd0 H0)) in Hi. injection Hi as <-. exact S.
  - pose proof (pdo_update1_synced (st_modify s) (st_bus s) pd0) as S.
    destruct (pdo_update1 _ _ _) as [b1 pd1]. cbn [fst] in Hi.
    rewrite (proj2 (task_set_pdo s b1 i pd1 pd0 H0)) in Hi. injection Hi as <-. exact S.
  - destruct (negb _); [discriminate|]. destruct (negb _); [discriminate|].
    pose proof (pdo_update1_synced (st_modify s) (st_bus s) (pd_set_data pd0 (slice_set (pd_data pd0) k v))) as S.
    destruct (pdo_update1 _ _ _) as [b1 pd1]. cbn [fst] in Hi.
    rewrite (proj2 (task_set_pdo s b1 i pd1 pd0 H0)) in Hi. injection Hi as <-. exact S.
Qed.

Lemma no_leak_invariant c ops :
  let s := run (init c) ops in
  AInv (st_bus s) (task_of s) /\ (forall p pt, task_of s p = Some pt -> frame_current s p pt).
Proof. intros s. destruct (reachable_inv c ops) as [A C]. split; [exact A|]. intros p pt H. exact (proj1 (C p pt H)). Qed.

