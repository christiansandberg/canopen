(* Source tie (DESIGN.md 4.3): NodeScanner.on_message_received as translated from the CURRENT source text equals the
   model's scan_step (Model/Net.v), on which C10's scanner theorems rest. *)
From Coq Require Import List Bool.
From CV Require Import Gen.SrcC10 Gen.NetTables Model.Net.
Import ListNotations.
Open Scope Z_scope.

Theorem src_scanner_step_eq found can_id :
  src_scanner_step SERVICES found can_id = scan_step found can_id.
Proof. unfold src_scanner_step, scan_step. cbv zeta. rewrite andb_assoc. reflexivity. Qed.
