(* Source tie (DESIGN.md 4.3) for C01 / C07: WritableStream.__init__ / write / close and ReadableStream.__init__ /
   read as translated from the CURRENT source text (Gen/SrcC01.v, state skeletons) determine the model functions of
   Model/SdoClient.v: which branch is taken, byte 0 of every request (command specifier, toggle, n, c, e, s bits),
   how many payload bytes are copied, what _toggle / _done / _error / pos / size are afterwards, and which exception
   class leaves the call. *)
From Coq Require Import ZArith List Bool Lia.
From CV Require Import Base.Val Base.Bytes Gen.SdoTables Gen.SrcC01 Model.RefServer Model.SdoClient.
Import ListNotations.
Open Scope Z_scope.

Definition zsome (o : option Z) : bool := match o with Some _ => true | None => false end.
Definition zget (o : option Z) : Z := match o with Some x => x | None => 0 end.
Definition osome {A} (o : option A) : bool := match o with Some _ => true | None => false end.
Definition zget_l (o : option (list Z)) : list Z := match o with Some d => d | None => [] end.

Section Eq.
  Context {S : Type} (peer : S -> frame -> S * list frame).

  (* the stream after a call, from the skeleton's outputs *)
  Definition mkws (size : option Z) (pos toggle : Z) (exp : option (list Z)) (done : bool) (e : option (option Z)) :=
    {| ws_size := size; ws_pos := pos; ws_toggle := toggle; ws_exp := exp; ws_done := done; ws_error := e |}.

  Definition ws_init_from_src (w : world) (idx sub : Z) (size : option Z) (force : bool) :=
    let sk raised rc := src_ws_init (zsome size) (zget size) force raised rc in
    let '(_, byte0, sized, exp, _, _, pos0, tog0) := sk false RESPONSE_DOWNLOAD in
    let st_of (t : Z * Z * bool * bool * bool * bool * Z * Z) (e : option Z) (hdr : option (list Z)) :=
      let '(_, _, _, _, done, err, pos, tog) := t in
      mkws size pos tog hdr done (if err then Some e else None) in
    let st0 := mkws size pos0 tog0 None false None in
    if exp then
      match pack_sdo byte0 idx sub with
      | Ok hdr => (w, st_of (sk false RESPONSE_DOWNLOAD) None (Some hdr), Ok tt)
      | Err k => (w, st0, Err k)
      | Abort c => (w, st0, Abort c)
      end
    else
      match (if sized then (if (0 <=? zget size) && (zget size <? 2 ^ 32) then Ok (le_encode 4 (zget size)) else Err E_STRUCT)
             else Ok [0; 0; 0; 0]) with
      | Ok sz =>
          match pack_sdo byte0 idx sub with
          | Ok hdr =>
              let '(w1, r) := request_response peer w (hdr ++ sz) in
              match r with
              | Ok resp =>
                  let t := sk false (nth 0 resp 0) in
                  let '(code, _, _, _, _, _, _, _) := t in
                  (w1, st_of t None None, if code =? 1 then Ok tt else Err E_SDOCOMM)
              | Err k => if k =? E_SDOCOMM then (w1, st_of (sk true 0) None None, Err k) else (w1, st0, Err k)
              | Abort c => (w1, st_of (sk true 0) (Some c) None, Abort c)
              end
          | Err k => (w, st0, Err k)
          | Abort c => (w, st0, Abort c)
          end
      | Err k => (w, st0, Err k)
      | Abort c => (w, st0, Abort c)
      end.

  (* what __init__ leaves, by the two tests it makes: segmented or expedited, and whether the initiate exchange failed *)
  Lemma src_ws_init_val sh sz force raised rc :
    src_ws_init sh sz force raised rc =
    if negb sh || ((sz <? 1) || (4 <? sz) || force)
    then let fail := raised || negb (rc =? RESPONSE_DOWNLOAD) in
         (if fail then 0 else 1, if sh then Z.lor REQUEST_DOWNLOAD SIZE_SPECIFIED else REQUEST_DOWNLOAD, sh, false,
          fail, fail, 0, 0)
    else (1, Z.lor (Z.lor (Z.lor REQUEST_DOWNLOAD EXPEDITED) SIZE_SPECIFIED) (Z.shiftl (4 - sz) 2), false, true,
          false, false, 0, 0).
  Proof.
    unfold src_ws_init. rewrite Z.gtb_ltb, (orb_assoc (sz <? 1)). destruct (negb sh || _); [|reflexivity].
    destruct sh, raised; try reflexivity; destruct (negb (rc =? RESPONSE_DOWNLOAD)); reflexivity.
  Qed.

  Theorem src_ws_init_eq (w : world) idx sub size force :
    ws_init peer w idx sub size force = ws_init_from_src w idx sub size force.
  Proof.
    unfold ws_init_from_src, ws_init, ws_new, mkws. cbv beta zeta. rewrite !src_ws_init_val.
    assert (Hseg : match size with Some z => (z <? 1) || (4 <? z) || force | None => true end =
                   negb (zsome size) || ((zget size <? 1) || (4 <? zget size) || force)) by (destruct size; reflexivity).
    rewrite Hseg. destruct (negb (zsome size) || _) eqn:Eseg; cbv beta iota zeta.
    - destruct size as [z|]; cbn [zsome zget] in *; [destruct ((0 <=? z) && (z <? 2 ^ 32)); [|reflexivity]|].
      all: destruct (pack_sdo _ idx sub) as [hdr|k|c]; [|reflexivity..].
      all: destruct (request_response peer w _) as [w1 [resp|k|c]]; [|destruct (k =? E_SDOCOMM); reflexivity|reflexivity].
      all: rewrite src_ws_init_val, Eseg.
      all: destruct (nth 0 resp 0 =? RESPONSE_DOWNLOAD); reflexivity.
    - destruct size as [z|]; [|discriminate]. destruct (pack_sdo _ idx sub) as [hdr|k|c]; reflexivity.
  Qed.

  Definition ws_write_from_src (w : world) (st : wstream) (b : list Z) :=
    let sk raised rc := src_ws_write (ws_done st) (osome (ws_error st)) (osome (ws_exp st)) (zsome (ws_size st))
                                     (zget (ws_size st)) (ws_pos st) (ws_toggle st) (zlen b) raised rc 0 0 false in
    let st_of (t : Z * Z * Z * Z * bool * bool * Z * Z) (e : option Z) :=
      let '(_, _, _, tog, done, err, pos, _) := t in
      mkws (ws_size st) pos tog (if err then None else ws_exp st) done (if err then Some e else ws_error st) in
    let '(c0, byte0, payload, _, _, _, _, _) := sk false 0 in
    if c0 =? 5 then (w, st, match ws_error st with Some (Some c) => Abort c | _ => Err E_SDOCOMM end)
    else if c0 =? 0 then (w, st, Err E_RUNTIME)
    else if c0 =? 2 then (w, st, Ok 0)
    else if c0 =? 3 then (w, st, Err E_OTHER)
    else
      let req := match ws_exp st with
                 | Some hdr => hdr ++ pad_to 4 b
                 | None => byte0 :: pad_to 7 (firstn (Z.to_nat payload) b)
                 end in
      let '(w1, r) := request_response peer w req in
      match r with
      | Ok resp =>
          let t := sk false (nth 0 resp 0) in
          let '(c, _, _, _, _, _, _, ret) := t in
          if c =? 1 then (w1, st_of t None, Ok ret)
          else if c =? 6 then (w1, st_of t None, Err E_SDOCOMM)
          else (w1, st, Err E_SDOCOMM)
      | Err k => if osome (ws_exp st) || negb (k =? E_SDOCOMM) then (w1, st, Err k)
                 else (w1, st_of (sk true 0) None, Err k)
      | Abort c => if osome (ws_exp st) then (w1, st, Abort c) else (w1, st_of (sk true 0) (Some c), Abort c)
      end.

  (* write() on a segmented transfer that is not done: one segment *)
  Lemma src_ws_write_seg herr sh size pos tog blen raised rc b0 pl err :
    src_ws_write false herr false sh size pos tog blen raised rc b0 pl err =
    let n := Z.min blen 7 in
    let last := sh && (size <=? pos + n) in
    let command := Z.lor REQUEST_SEGMENT_DOWNLOAD tog in
    let byte0 := Z.lor (if last then Z.lor command NO_MORE_DATA else command) (Z.shiftl (7 - n) 1) in
    if raised || negb (Z.land rc 224 =? RESPONSE_SEGMENT_DOWNLOAD) then (6, byte0, n, tog, true, true, pos, 0)
    else (1, byte0, n, Z.lxor tog TOGGLE_BIT, last, err, pos + n, n).
  Proof.
    unfold src_ws_write. rewrite Z.geb_leb. cbv zeta.
    destruct (sh && _), raised; try reflexivity; destruct (negb _); reflexivity.
  Qed.

  Theorem src_ws_write_eq (w : world) st b :
    ws_write peer w st b = ws_write_from_src w st b.
  Proof.
    destruct st as [size pos tog exp done err].
    destruct done; [destruct err as [[c|]|]; reflexivity|].
    unfold ws_write_from_src, ws_write, mkws. cbv beta zeta. cbn [ws_done ws_error ws_exp ws_size ws_pos ws_toggle].
    destruct exp as [hdr|]; cbn [osome].
    - unfold src_ws_write. change (match size with Some z => z | None => 0 end) with (zget size).
      destruct (zlen b <? zget size); [reflexivity|]. rewrite Z.gtb_ltb. destruct (4 <? zlen b); [reflexivity|].
      cbn [Z.land Z.eqb negb RESPONSE_DOWNLOAD].
      destruct (request_response peer w _) as [w1 [resp|k|c]]; [|reflexivity|reflexivity].
      destruct (Z.land (nth 0 resp 0) 224 =? RESPONSE_DOWNLOAD); reflexivity.
    - replace (match size with Some z => z <=? pos + Z.min (zlen b) 7 | None => false end)
        with (zsome size && (zget size <=? pos + Z.min (zlen b) 7)) by (destruct size; reflexivity).
      rewrite !src_ws_write_seg. cbv zeta. cbn [orb negb Z.land Z.eqb RESPONSE_SEGMENT_DOWNLOAD Pos.eqb].
      destruct (request_response peer w _) as [w1 [resp|k|c]]; [|destruct (k =? E_SDOCOMM); reflexivity|reflexivity].
      rewrite src_ws_write_seg. cbv zeta. cbn [orb].
      destruct (Z.land (nth 0 resp 0) 224 =? RESPONSE_SEGMENT_DOWNLOAD); reflexivity.
  Qed.

  Definition ws_close_from_src (w : world) (st : wstream) :=
    let '(sent, byte0, done) := src_ws_close (ws_done st) (osome (ws_exp st)) (ws_toggle st) false 0 in
    if sent then
      let '(w1, r) := request_response peer w (byte0 :: [0; 0; 0; 0; 0; 0; 0]) in
      match r with
      | Ok _ => (w1, mkws (ws_size st) (ws_pos st) (ws_toggle st) (ws_exp st) done (ws_error st), Ok tt)
      | Err k => (w1, st, Err k)
      | Abort c => (w1, st, Abort c)
      end
    else (w, st, Ok tt).

  Theorem src_ws_close_eq (w : world) st :
    ws_close peer w st = ws_close_from_src w st.
  Proof.
    unfold ws_close_from_src, ws_close, src_ws_close, mkws. destruct (ws_done st), (ws_exp st); reflexivity.
  Qed.

  (* ReadableStream.__init__: the skeleton is consulted once the response has its four header bytes *)
  Definition rs_init_from_src (w : world) (idx sub : Z) :=
    match pack_sdo REQUEST_UPLOAD idx sub with
    | Ok hdr =>
        let '(w1, r) := request_response peer w (hdr ++ [0; 0; 0; 0]) in
        match r with
        | Ok resp =>
            if (length resp <? 4)%nat then (w1, rs_new, Err E_STRUCT)
            else
              let res_data := firstn 4 (skipn 4 resp) in
              let '(code, size_has, size, exp, pos, tog, done) :=
                src_rs_init idx sub (nth 0 resp 0) (nth 1 resp 0 + 256 * nth 2 resp 0) (nth 3 resp 0)
                            (zlen res_data) (le_decode res_data) false 0 0 in
              if code =? 1 then
                if (exp =? 0) && size_has && negb (length res_data =? 4)%nat then (w1, rs_new, Err E_STRUCT)
                else (w1, {| rs_done := done; rs_toggle := tog;
                             rs_pos := if exp =? 1 then zlen (firstn (Z.to_nat size) res_data) else pos;
                             rs_size := if size_has then Some size else None;
                             rs_exp := if exp =? 1 then Some (firstn (Z.to_nat size) res_data)
                                       else if exp =? 2 then Some res_data else None;
                             rs_pending := [] |}, Ok tt)
              else (w1, rs_new, Err E_SDOCOMM)
        | Err k => (w1, rs_new, Err k)
        | Abort c => (w1, rs_new, Abort c)
        end
    | Err k => (w, rs_new, Err k)
    | Abort c => (w, rs_new, Abort c)
    end.

  Theorem src_rs_init_eq (w : world) idx sub :
    rs_init peer w idx sub = rs_init_from_src w idx sub.
  Proof.
    unfold rs_init_from_src, rs_init, src_rs_init, rs_new.
    destruct (pack_sdo REQUEST_UPLOAD idx sub) as [hdr|k|c]; [|reflexivity|reflexivity].
    destruct (request_response peer w _) as [w1 [resp|k|c]]; [|reflexivity|reflexivity].
    destruct (length resp <? 4)%nat; [reflexivity|].
    destruct (negb (Z.land (nth 0 resp 0) 224 =? RESPONSE_UPLOAD)); [reflexivity|].
    rewrite negb_andb.
    destruct (negb (nth 1 resp 0 + 256 * nth 2 resp 0 =? idx) || negb (nth 3 resp 0 =? sub)); [reflexivity|].
    destruct (negb (Z.land (nth 0 resp 0) EXPEDITED =? 0)).
    - destruct (negb (Z.land (nth 0 resp 0) SIZE_SPECIFIED =? 0)); reflexivity.
    - destruct (negb (Z.land (nth 0 resp 0) SIZE_SPECIFIED =? 0)); cbn [Z.eqb andb negb];
        [destruct (length (firstn 4 (skipn 4 resp)) =? 4)%nat|]; reflexivity.
  Qed.

  (* the position the source computes for an expedited upload with size, len(res_data[:size]), is the model's *)
  Lemma src_rs_init_pos (size : Z) (res_data : list Z) :
    zlen (firstn (Z.to_nat size) res_data) = Z.min (Z.max size 0) (zlen res_data).
  Proof using peer. unfold zlen. rewrite firstn_length. lia. Qed.

  (* ReadableStream.read(size) for size >= 0 *)
  Definition rs_read_from_src (rec : world -> rstream -> world * rstream * res (list Z)) (w : world) (st : rstream) (size : Z) :=
    let sk rc := src_rs_read (negb (is_nil (rs_pending st))) false size (rs_done st) (osome (rs_exp st))
                             (rs_toggle st) (rs_pos st) rc 0 0 in
    let '(c0, byte0, _, done0, _, _) := sk 255 in
    if c0 =? 2 then (w, set_pending [] st, Ok (rs_pending st))
    else if c0 =? 3 then (w, st, Ok [])
    else if c0 =? 4 then
      (w, {| rs_done := done0; rs_toggle := rs_toggle st; rs_pos := rs_pos st; rs_size := rs_size st;
             rs_exp := rs_exp st; rs_pending := rs_pending st |}, Ok (zget_l (rs_exp st)))
    else
      let '(w1, r) := request_response peer w (byte0 :: [0; 0; 0; 0; 0; 0; 0]) in
      match r with
      | Ok resp =>
          let '(c, _, tog, done, pos, len) := sk (nth 0 resp 0) in
          let st1 := {| rs_done := done; rs_toggle := tog; rs_pos := pos; rs_size := rs_size st; rs_exp := None;
                        rs_pending := rs_pending st |} in
          if c =? 6 then rec w1 st1
          else if c =? 7 then (w1, st1, Ok (firstn (Z.to_nat len) (skipn 1 resp)))
          else (w1, st, Err E_SDOCOMM)
      | Err k => (w1, st, Err k)
      | Abort c => (w1, st, Abort c)
      end.

  Theorem src_rs_read_eq (f : nat) (w : world) st size :
    0 <= size ->
    rs_read peer (Datatypes.S f) w st = rs_read_from_src (rs_read peer f) w st size.
  Proof.
    intros Hsz. unfold rs_read_from_src. cbn [rs_read]. unfold src_rs_read.
    assert (size <? 0 = false) as -> by lia. cbn [orb].
    destruct (negb (is_nil (rs_pending st))); [reflexivity|].
    destruct (rs_done st); [reflexivity|].
    destruct (rs_exp st) as [d|]; cbn [osome]; [reflexivity|]. cbv beta iota zeta.
    change (Z.land 255 224) with 224. change (negb (224 =? RESPONSE_SEGMENT_UPLOAD)) with true. cbv iota beta.
    destruct (request_response peer w _) as [w1 [resp|k|c]]; [|reflexivity|reflexivity].
    destruct (negb (Z.land (nth 0 resp 0) 224 =? RESPONSE_SEGMENT_UPLOAD)); [reflexivity|].
    destruct (negb (Z.land (nth 0 resp 0) TOGGLE_BIT =? rs_toggle st)); [reflexivity|].
    destruct (negb (Z.land (nth 0 resp 0) NO_MORE_DATA =? 0)); cbn [negb andb];
      [rewrite andb_false_r; reflexivity|].
    rewrite andb_true_r.
    destruct (7 - Z.land (Z.shiftr (nth 0 resp 0) 1) 7 =? 0); reflexivity.
  Qed.

  Definition abort_frame_from_src (code : Z) : frame :=
    let '(byte0, code_at_4, _) := src_abort code 0 in byte0 :: [0; 0; 0] ++ le_encode 4 code_at_4.

  Theorem src_abort_eq code : abort_frame code = abort_frame_from_src code.
  Proof. reflexivity. Qed.

  (* SdoClient.request_response: the first pass of its loop, MAX_RETRIES as in the source *)
  Definition request_response_from_src (w : world) (req : frame) : world * res frame :=
    let sk raised := src_request_response SDO_MAX_RETRIES (is_nil (w_q w)) raised false 0 0 in
    let '(_, flushed, _, _, _) := sk false in
    let w0 := if flushed then set_q [] w else w in
    let w1 := send_request peer w0 req in
    let '(w2, r) := read_response w1 in
    match r with
    | Err k =>
        if k =? E_SDOCOMM then
          let '(code, _, _, abort, _) := sk true in
          if code =? 2 then ((if abort =? 0 then w2 else send_request peer w2 (abort_frame_from_src abort)), r)
          else (w2, Err E_FUEL)        (* the loop would send the request again: not with MAX_RETRIES = 1 *)
        else (w2, r)
    | _ => (w2, r)
    end.

  Theorem src_request_response_eq (w : world) req :
    request_response peer w req = request_response_from_src w req.
  Proof.
    unfold request_response, request_response_from_src, src_request_response.
    destruct (w_q w) as [|r0 q]; cbn [is_nil negb];
      (destruct (read_response _) as [w2 [resp|k|c]]; [reflexivity| |reflexivity]);
      destruct (k =? E_SDOCOMM); reflexivity.
  Qed.
End Eq.

  (* SdoClient.upload: the truncation to the declared size of a numeric entry.
     odt = data type of od.get_variable(index, subindex) (None = not found); len(var) = 8 * the byte size of its packer *)
  Definition truncate_from_src (odt : option Z) (response_size : option Z) (data : list Z) : list Z :=
    let vs := match odt with Some t => od_var_size t | None => None end in
    let '(tr, n) := src_upload (osome odt) (osome vs) (8 * zget vs) (zsome response_size) (zget response_size) false 0 in
    if tr then firstn (Z.to_nat n) data else data.

  Theorem src_upload_eq odt response_size data :
    truncate odt response_size data = truncate_from_src odt response_size data.
  Proof.
    unfold truncate, truncate_from_src, src_upload. destruct odt as [t|]; [|reflexivity]. cbn [osome].
    destruct (od_var_size t) as [vs|]; [|reflexivity]. cbn [osome zget].
    rewrite (Z.mul_comm 8 vs), Z.div_mul by lia.
    destruct response_size as [rs|]; cbn [zsome zget negb orb]; [destruct (vs <? rs)|]; reflexivity.
  Qed.

Definition read_response_from_src {S : Type} (w : @world S) : @world S * res frame :=
  match w_q w with
  | [] => (w, if src_read_response true 0 =? 0 then Err E_SDOCOMM else Err E_FUEL)
  | r :: q' =>
      let w' := set_q q' w in
      match r with
      | [] => (w', Err E_STRUCT)
      | c :: _ =>
          let code := src_read_response false c in
          if code =? 1 then
            if (length r <? 8)%nat then (w', Err E_STRUCT) else (w', Abort (le_decode (firstn 4 (skipn 4 r))))
          else if code =? 2 then (w', Ok r) else (w', Err E_FUEL)
      end
  end.

Theorem src_read_response_eq {S : Type} (w : @world S) : read_response w = read_response_from_src w.
Proof.
  unfold read_response, read_response_from_src, src_read_response.
  destruct (w_q w) as [|r q']; [reflexivity|]. destruct r as [|c r']; [reflexivity|].
  destruct (c =? RESPONSE_ABORTED); reflexivity.
Qed.

(* ReadableStream.readinto(b), cap = len(b) >= 0 *)
Section Eq2.
  Context {S : Type} (peer : S -> frame -> S * list frame).

  Definition rs_readinto_from_src (rf : nat) (cap : Z) (w : world) (st : rstream) : world * rstream * res (list Z) :=
    let sk rl := src_rs_readinto (zlen (rs_pending st)) cap rl false 0 in
    let '(read7, _, _, _) := sk 0 in
    if read7 then
      let '(w1, st1, r) := rs_read peer rf w st in
      match r with
      | Ok d =>
          let '(_, count, copied, _) := sk (zlen d) in
          (w1, set_pending (skipn (Z.to_nat count) d) st1, Ok (firstn (Z.to_nat copied) d))
      | _ => (w1, st1, r)
      end
    else
      let '(_, count, copied, _) := sk 0 in
      (w, set_pending (skipn (Z.to_nat count) (rs_pending st)) st, Ok (firstn (Z.to_nat copied) (rs_pending st))).

  Theorem src_rs_readinto_eq rf cap (w : world) st :
    0 <= cap -> rs_readinto peer rf cap w st = rs_readinto_from_src rf cap w st.
  Proof.
    intros Hc. unfold rs_readinto, rs_readinto_from_src, src_rs_readinto.
    assert (cap <? 0 = false) as -> by lia.
    destruct (rs_pending st) as [|x p] eqn:Hp.
    - change (zlen (@nil Z) =? 0) with true. cbv iota beta.
      destruct (rs_read peer rf w st) as [[w1 st1] [d|k|c]]; reflexivity.
    - assert (zlen (x :: p) =? 0 = false) as -> by (unfold zlen; cbn [length]; lia).
      reflexivity.
  Qed.

  (* the length of _pending the source leaves is the model's *)
  Lemma src_rs_readinto_plen cap (d : list Z) : 0 <= cap ->
    zlen (skipn (Z.to_nat (Z.min cap (zlen d))) d) = zlen d - Z.min cap (zlen d).
  Proof using peer. intros Hc. unfold zlen. rewrite skipn_length. lia. Qed.
End Eq2.
