(* C16 - The EMCY consumer's log and active list mirror the received history.
   Statements only: each theorem is [exact] of a lemma of Proofs/{Emcy_proofs.v, Src_eq_c16.v};
   the examples are concrete instances.
   Model: Model/Emcy.v (EMCY_STRUCT unpack/pack, EmcyConsumer.on_emcy/add_callback/reset/wait,
   EmcyProducer.send/reset, EmcyError.get_desc); tables: Gen/EmcyTables.v (frame layout and
   EmcyError.DESCRIPTIONS) regenerated from /repo on every run.

   Vocabulary:  [feed s frames]  = the consumer state after the (frame, timestamp) list, starting in s
                                   (a frame whose unpack raises leaves the state untouched);
                [decoded frames] = the entries of the frames that decode, in arrival order;
                [frame_entry f ts] = code f[0] + 256 f[1], register f[2], data f[3..7], timestamp ts;
                [init n]         = a fresh consumer with n registered callbacks (ids 0 .. n-1);
                [invocations n es] = for each entry of es in order, one invocation of each of the
                                   callbacks 0 .. n-1 in registration order. *)
From Coq Require Import ZArith List Bool.
From Coq Require String.
From CV Require Import Base.Val Base.Bytes Base.Tys Gen.EmcyTables Model.Emcy Proofs.Emcy_proofs Gen.SrcC16 Proofs.Src_eq_c16.
Import ListNotations.
Open Scope Z_scope.

Theorem C16_decode_layout : forall f ts, zlen f = 8 -> decode_emcy f ts = Ok (frame_entry f ts).
Proof. exact decode_spec. Qed.

(* a frame that is not 8 bytes long raises struct.error and changes nothing *)
Theorem C16_malformed_ignored : forall s f ts, zlen f <> 8 ->
  on_emcy s f ts = Err E_STRUCT /\ feed s [(f, ts)] = s.
Proof. exact malformed_ignored. Qed.

(* log: one entry per frame, in arrival order, for every frame list and every start state *)
Theorem C16_log_mirrors : forall s frames, s_log (feed s frames) = s_log s ++ decoded frames.
Proof. exact log_mirrors. Qed.

(* ... and on 8-byte frames each entry carries the frame's code, register, five data bytes and timestamp *)
Theorem C16_log_is_frames : forall n frames, Forall (fun ft => zlen (fst ft) = 8) frames ->
  s_log (feed (init n) frames) = map (fun ft => frame_entry (fst ft) (snd ft)) frames.
Proof. exact log_is_frames. Qed.

(* active: exactly the entries received since the last error-reset frame.
   What the code treats as a reset frame is "code & 0xFF00 == 0", which on 16-bit codes is the
   CiA 301 error class 00xx ("error reset or no error"): *)
Theorem C16_reset_is_class_00 : forall c, 0 <= c < 65536 -> is_reset_code c = (c <? 256).
Proof. exact reset_is_class_00. Qed.

(* no reset frame in the history: everything received is still active *)
Theorem C16_active_no_reset : forall s frames,
  Forall (fun e => is_reset e = false) (decoded frames) ->
  s_active (feed s frames) = s_active s ++ decoded frames.
Proof. exact active_no_reset. Qed.

(* r is the last reset frame: the active list is exactly what came after it (r itself is logged, not active) *)
Theorem C16_active_since_reset : forall s frames pre r post,
  decoded frames = pre ++ r :: post -> is_reset r = true -> Forall (fun e => is_reset e = false) post ->
  s_active (feed s frames) = post.
Proof. exact active_since_reset. Qed.

(* callbacks: invoked once per frame, in frame order, each callback in registration order *)
Theorem C16_callbacks_in_order : forall s frames,
  s_cblog (feed s frames) = s_cblog s ++ invocations (s_ncb s) (decoded frames).
Proof. exact callbacks_in_order. Qed.

(* seen from one registered callback i: it received exactly the decoded frames, once each, in order *)
Theorem C16_callbacks_once_each : forall n frames i, 0 <= i < Z.of_nat n ->
  map snd (filter (fun p => fst p =? i) (s_cblog (feed (init n) frames))) = decoded frames.
Proof. exact callbacks_once_each. Qed.

Theorem C16_producer_consumer_roundtrip : forall code reg data ts,
  0 <= code < 65536 -> 0 <= reg < 256 -> (length data <= 5)%nat ->
  exists f, producer_send code reg data = Ok f /\ zlen f = 8 /\
            decode_emcy f ts = Ok (mkE code reg (data ++ repeat 0 (5 - length data)) ts).
Proof. exact producer_consumer_roundtrip. Qed.

Theorem C16_producer_into_consumer : forall s code reg data ts,
  0 <= code < 65536 -> 0 <= reg < 256 -> (length data <= 5)%nat ->
  exists f, producer_send code reg data = Ok f /\
    let e := mkE code reg (data ++ repeat 0 (5 - length data)) ts in
    on_emcy s f ts = Ok (record_entry s e) /\
    s_log (feed s [(f, ts)]) = s_log s ++ [e] /\
    s_active (feed s [(f, ts)]) = if code <? 256 then [] else s_active s ++ [e].
Proof. exact producer_into_consumer. Qed.

(* EmcyProducer.reset sends code 0, which every consumer treats as an error reset *)
Theorem C16_producer_reset : forall reg data ts, 0 <= reg < 256 ->
  producer_reset reg data = producer_send 0 reg data /\
  exists f e, producer_reset reg data = Ok f /\ decode_emcy f ts = Ok e /\ is_reset e = true /\
              e_reg e = reg /\ e_data e = pad_data data.
Proof. exact producer_reset_is_reset. Qed.

(* a code or register outside its field is refused (struct.error), nothing is sent *)
Theorem C16_producer_rejects : forall code reg data, ~ (0 <= code < 65536 /\ 0 <= reg < 256) ->
  producer_send code reg data = Err E_STRUCT.
Proof. exact encode_rejects. Qed.

(* any sequence of messages from one producer into a consumer: message i (sent at ts + i) is logged with its
   own code, register and zero-padded data, whatever was sent before it *)
Theorem C16_producer_sequence : forall msgs s ts, Forall msg_ok msgs ->
  s_log (produce_all s ts msgs) = s_log s ++ msg_entries ts msgs.
Proof. exact producer_sequence. Qed.

(* descriptions: for all 65536 codes, EmcyError.get_desc over the regenerated DESCRIPTIONS table is
   the CiA 301 class name of the code.  Every mask in the table is a multiple of 256 and every class
   begins and ends on one, so both sides depend on the high byte of the code only; the 256 high bytes
   are evaluated in the kernel. *)
Theorem C16_desc_table_is_cia301 : forall c, 0 <= c < 65536 -> get_desc c = str_codes (cia301_class c).
Proof. exact desc_table_is_cia301. Qed.

(* wait: over the wake-up schedule model of Model/Emcy.v (WNew batch late, WTimeout); [arrivals ws] = every
   entry that arrives while the caller waits, before the time-out (a wake-up with an unchanged log,
   a wake-up past the deadline, or no further wake-up).  For EVERY schedule - any number of frames
   per wake-up, any older log, any number of wake-ups - the caller is handed the first matching entry
   that arrives before the time-out, or nothing.
   Not modelled (this is why the property is claimed as partial): the condition variable, thread
   scheduling and the clock, i.e. what decides the schedule; the model takes the schedule as input. *)
Theorem C16_wait_next_match : forall filt ws log, wait_scan filt log ws = find (matchb filt) (arrivals ws).
Proof. exact wait_next_match. Qed.

(* the same spelled out: what is handed over matches, and nothing that arrived before it does *)
Theorem C16_wait_handed_first_match : forall filt log ws e, wait_scan filt log ws = Some e ->
  exists pre post, arrivals ws = pre ++ e :: post /\ matchb filt e = true /\
                   Forall (fun x => matchb filt x = false) pre.
Proof. exact wait_handed_first_match. Qed.

(* nothing is handed over only if nothing that arrived in time matches *)
Theorem C16_wait_nothing : forall filt log ws, wait_scan filt log ws = None ->
  Forall (fun x => matchb filt x = false) (arrivals ws).
Proof. exact wait_nothing. Qed.

(* the result depends only on the sequence of arrivals, not on how they are spread over wake-ups
   nor on what was in the log before *)
Theorem C16_wait_schedule_independent : forall filt log1 log2 ws1 ws2, arrivals ws1 = arrivals ws2 ->
  wait_scan filt log1 ws1 = wait_scan filt log2 ws2.
Proof. exact wait_schedule_independent. Qed.

(* the deadline: once a wake-up finds the clock past end_time, nothing logged at or after it is handed
   out, whatever still arrives (the call as a whole has one deadline, not one per wake-up) *)
Theorem C16_wait_deadline : forall filt log pre b r,
  wait_scan filt log (pre ++ WNew b true :: r) = wait_scan filt log pre.
Proof. exact wait_deadline. Qed.

Definition nv_frames : list (list Z * Z) :=
  [([1; 32; 2; 0; 1; 2; 3; 4], 1000); ([0; 0; 0; 0; 0; 0; 0; 0], 1001); ([0; 48; 129; 9; 8; 7; 6; 5], 1002);
   ([255; 0; 1; 0; 0; 0; 0; 1], 1003); ([1; 2; 3], 1004); ([0; 129; 17; 1; 0; 0; 0; 0], 1005);
   ([0; 255; 128; 255; 255; 255; 255; 255], 1006)].

(* a history with two resets and a malformed frame: the hypotheses of C16_active_since_reset are met *)
Example C16_nv_history :
  let pre := [mkE 8193 2 [0; 1; 2; 3; 4] 1000; mkE 0 0 [0; 0; 0; 0; 0] 1001; mkE 12288 129 [9; 8; 7; 6; 5] 1002] in
  let r := mkE 255 1 [0; 0; 0; 0; 1] 1003 in
  let post := [mkE 33024 17 [1; 0; 0; 0; 0] 1005; mkE 65280 128 [255; 255; 255; 255; 255] 1006] in
  decoded nv_frames = pre ++ r :: post /\ is_reset r = true /\ forallb is_reset post = false /\
  s_active (feed (init 2) nv_frames) = post /\ length (s_log (feed (init 2) nv_frames)) = 6%nat /\
  length (s_cblog (feed (init 2) nv_frames)) = 12%nat.
Proof. vm_compute. repeat split; reflexivity. Qed.

Example C16_nv_roundtrip :
  producer_send 65535 255 [1; 2; 3] = Ok [255; 255; 255; 1; 2; 3; 0; 0] /\
  decode_emcy [255; 255; 255; 1; 2; 3; 0; 0] 7 = Ok (mkE 65535 255 [1; 2; 3; 0; 0] 7) /\
  producer_send 65536 0 [] = Err E_STRUCT.
Proof. vm_compute. repeat split; reflexivity. Qed.

(* "Current", no class, "Device Specific" as code points *)
Example C16_nv_desc : get_desc 8448 = [67; 117; 114; 114; 101; 110; 116] /\ get_desc 4352 = [] /\
  get_desc 65535 = [68; 101; 118; 105; 99; 101; 32; 83; 112; 101; 99; 105; 102; 105; 99] /\ length DESCRIPTIONS = 12%nat.
Proof. vm_compute. repeat split; reflexivity. Qed.

(* a filtered wait: a burst of two frames seen by one wake-up, then a single frame, then a time-out;
   two schedules with the same arrivals *)
Example C16_nv_wait :
  let e1 := mkE 8193 0 [0; 0; 0; 0; 0] 1 in let e2 := mkE 12288 0 [0; 0; 0; 0; 0] 2 in
  let e3 := mkE 8193 0 [0; 0; 0; 0; 0] 3 in
  let ws := [WNew [e1; e2] false; WNew [e3] false; WTimeout] in
  let ws' := [WNew [e1] false; WNew [e2; e3] false; WNew [e1] true] in
  arrivals ws = [e1; e2; e3] /\ arrivals ws' = arrivals ws /\
  wait_scan (Some 8193) [e2] ws = Some e1 /\ wait_scan (Some 12288) [] ws = Some e2 /\
  wait_scan None [] ws = Some e1 /\ wait_scan (Some 20480) [] ws = None.
Proof. vm_compute. repeat split; reflexivity. Qed.

(* Tie to the source text: the error-reset test of EmcyConsumer.on_emcy as translated from the CURRENT source
   by tools/py2coq.py (Gen/SrcC16.v, regenerated on every run) is the model's is_reset_code. *)
Theorem C16_source_reset_test_is_model : forall code, src_emcy_is_reset code = is_reset_code code.
Proof. exact src_emcy_is_reset_eq. Qed.

Print Assumptions C16_decode_layout.
Print Assumptions C16_malformed_ignored.
Print Assumptions C16_log_mirrors.
Print Assumptions C16_log_is_frames.
Print Assumptions C16_reset_is_class_00.
Print Assumptions C16_active_no_reset.
Print Assumptions C16_active_since_reset.
Print Assumptions C16_callbacks_in_order.
Print Assumptions C16_callbacks_once_each.
Print Assumptions C16_producer_consumer_roundtrip.
Print Assumptions C16_producer_into_consumer.
Print Assumptions C16_producer_reset.
Print Assumptions C16_producer_rejects.
Print Assumptions C16_producer_sequence.
Print Assumptions C16_desc_table_is_cia301.
Print Assumptions C16_wait_next_match.
Print Assumptions C16_wait_handed_first_match.
Print Assumptions C16_wait_nothing.
Print Assumptions C16_wait_schedule_independent.
Print Assumptions C16_wait_deadline.
Print Assumptions C16_source_reset_test_is_model.
