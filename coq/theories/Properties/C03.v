(* C03 - typed values survive the client -> bus -> server -> client round trip.
   Statements only: each theorem is [exact] of a lemma of Proofs/{SdoLink_proofs.v, Src_eq_c01.v};
   the examples are concrete instances.
   Model: Model/SdoLink.v = the library's SDO CLIENT model (Model/SdoClient.v, as verified against the
   reference server in C01) run against the library's SDO SERVER model (Model/SdoServer.v: on_request,
   LocalNode.get_data / set_data, as verified against the reference client in C02) - no reference peer
   in between, so symmetric errors of client and server cannot cancel - plus the typed layer
   (Variable.raw (class of variable.py) = ODVariable.encode_raw / decode_raw of Model/Codec.v around SdoVariable.set_data /
   get_data; accessor look-up by index, name, "Record.Member", record member) and Network.notify.
   [roundtrip nd w a value sched] = write value through remote.sdo[a].raw, read it back through
   remote.sdo[a].raw, read it through local.sdo[a].raw, look at LocalNode.data_store; the observation
   is VL [remote read-back; local read-back; VB stored bytes].  [w] is ANY state of client and
   server (arbitrary response queue, arbitrary earlier transfers, arbitrary store).
   [registered nd a idx sub dt]: the spelling [a] resolves to a read-write variable of data type dt
   whose own index/subindex attributes are idx:sub and which the dictionary registers there.
   [sched] = the chunk sizes io.BufferedWriter(7) offers to the raw stream (any valid schedule). *)
From Coq Require Import ZArith List Bool Lia.
From CV Require Import Base.Val Base.Bytes Base.Tys Gen.Tables Model.Codec Model.SdoClient Model.SdoServer Model.SdoLink
  Proofs.Codec_proofs Proofs.SdoLink_proofs Gen.SrcC01 Proofs.Src_eq_c01.
Import ListNotations.
Open Scope Z_scope.

(* Every integer type of the regenerated STRUCT_TYPES table (signedness s, width wd), every in-range
   value: the server stores exactly le_encode (wd/8) v - the CiA 301 little-endian (two's complement)
   encoding by C04_encode_exact - and both read-backs yield v. *)
Theorem C03_typed_roundtrip : forall nd (w : lworld) a idx sub t p s wd v sched,
  registered nd a idx sub t -> mux_ok idx sub ->
  zassoc t STRUCT_TYPES = Some p -> int_packer p = Some (s, wd) -> in_range s wd v = true ->
  valid_sched (expedited (Some (wd / 8)) (t =? dt_DOMAIN)) sched (wd / 8) ->
  exists w', roundtrip nd w a (PInt v) sched =
               (w', VL [VZ v; VZ v; VB (le_encode (Z.to_nat (wd / 8)) v)]) /\
             store_get (s_store (w_s w')) idx sub = Some (le_encode (Z.to_nat (wd / 8)) v).
Proof. exact typed_roundtrip. Qed.

Theorem C03_bool_roundtrip : forall nd (w : lworld) a idx sub (b : bool),
  registered nd a idx sub dt_BOOLEAN -> mux_ok idx sub -> zassoc dt_BOOLEAN STRUCT_TYPES = Some PBool ->
  exists w', roundtrip nd w a (PInt (if b then 1 else 0)) [1] =
               (w', VL [VZ (if b then 1 else 0); VZ (if b then 1 else 0); VB [if b then 1 else 0]]) /\
             store_get (s_store (w_s w')) idx sub = Some [if b then 1 else 0].
Proof. exact bool_roundtrip. Qed.

(* REAL32 / REAL64 on IEEE-754 bit patterns *)
Theorem C03_real_roundtrip : forall nd (w : lworld) a idx sub t wd bits sched,
  registered nd a idx sub t -> mux_ok idx sub -> zassoc t STRUCT_TYPES = Some (PReal wd) -> 0 <= bits < 2 ^ wd ->
  valid_sched (expedited (Some (wd / 8)) (t =? dt_DOMAIN)) sched (wd / 8) ->
  exists w', roundtrip nd w a (PFloat bits) sched =
               (w', VL [VL [VZ bits]; VL [VZ bits]; VB (le_encode (Z.to_nat (wd / 8)) bits)]) /\
             store_get (s_store (w_s w')) idx sub = Some (le_encode (Z.to_nat (wd / 8)) bits).
Proof. exact real_roundtrip. Qed.

(* DOMAIN (forces segmented transfer) and OCTET_STRING: payloads of ANY length the model's fuel covers
   (7 * FUEL - 14 = 20986 bytes; FUEL bounds the model's read loop): induction over the write schedule
   against the server's segmented_download and over the server's buffer against the client's read loop *)
Theorem C03_bytes_roundtrip : forall nd (w : lworld) a idx sub dt data sched,
  registered nd a idx sub dt -> dt = dt_DOMAIN \/ dt = dt_OCTET_STRING -> mux_ok idx sub ->
  zlen data < 2 ^ 32 -> (length data + 14 <= 7 * FUEL)%nat ->
  valid_sched (expedited (Some (zlen data)) (dt =? dt_DOMAIN)) sched (zlen data) ->
  exists w', roundtrip nd w a (PBytes data) sched = (w', VL [VB data; VB data; VB data]) /\
             store_get (s_store (w_s w')) idx sub = Some data.
Proof. exact bytes_roundtrip. Qed.

(* VISIBLE_STRING (hypotheses of C04_ascii_roundtrip: ASCII, no trailing NUL) *)
Theorem C03_ascii_roundtrip : forall nd (w : lworld) a idx sub s sched,
  registered nd a idx sub dt_VISIBLE_STRING -> mux_ok idx sub ->
  forallb is_ascii s = true -> last s 1 <> 0 -> (length s + 14 <= 7 * FUEL)%nat ->
  valid_sched (expedited (Some (zlen s)) false) sched (zlen s) ->
  exists w', roundtrip nd w a (PStr s) sched = (w', VL [VS s; VS s; VB s]) /\
             store_get (s_store (w_s w')) idx sub = Some s.
Proof. exact ascii_text_roundtrip. Qed.

(* Any data type: whatever bytes the codec makes of the value are what the server holds, and what the
   codec makes of those bytes is what both sides read (UNICODE_STRING follows with C04_utf16_roundtrip) *)
Theorem C03_codec_roundtrip : forall nd (w : lworld) a idx sub dt value data back sched,
  registered nd a idx sub dt -> mux_ok idx sub ->
  encode_raw (Some dt) value = Ok data -> decode_raw (Some dt) data = Ok back ->
  length_ok (rw_var dt) data = true -> zlen data < 2 ^ 32 -> (length data + 14 <= 7 * FUEL)%nat ->
  trunc_ok (Some dt) data ->
  valid_sched (expedited (Some (zlen data)) (dt =? dt_DOMAIN)) sched (zlen data) ->
  exists w', roundtrip nd w a value sched = (w', VL [pyval_val back; pyval_val back; VB data]) /\
             store_get (s_store (w_s w')) idx sub = Some data.
Proof. exact codec_roundtrip. Qed.

(* a variable registered directly (sub-index 0) or as a record member is reachable *)
Theorem C03_registered_reachable : forall nd idx sub dt name, holds_var nd idx sub dt name ->
  entry_rw (to_dict nd) idx sub (rw_var dt) /\ od_type nd idx sub = Some dt /\
  exists a, resolve nd a = Ok {| nv_name := name; nv_index := idx; nv_sub := sub; nv_var := rw_var dt |}.
Proof. exact holds_var_facts. Qed.

(* Channel isolation (Network.subscribe / notify): whatever the bus trace, every subscribed client's
   response queue grows by exactly the frames on its own COB-ID, in order ... *)
Theorem C03_channel_isolation : forall subs queues trace c q, In (c, q) queues -> zmem c subs = true ->
  In (c, q ++ delivered c trace) (notify_all subs queues trace).
Proof. exact channel_isolation. Qed.

(* ... so two traces that agree on every subscribed COB-ID leave identical queues: frames of other
   nodes' transfers and unrelated traffic, however interleaved, are invisible to a transfer
   (whose result is a function of the frames entering its queue: send_request appends exactly them) *)
Theorem C03_other_traffic_invisible : forall subs queues tr1 tr2,
  (forall c, zmem c subs = true -> delivered c tr1 = delivered c tr2) ->
  notify_all subs queues tr1 = notify_all subs queues tr2.
Proof. exact other_traffic_invisible. Qed.

Theorem C03_interleaving : forall cob cid fr t1 t2, cid <> cob ->
  delivered cob (t1 ++ (cid, fr) :: t2) = delivered cob (t1 ++ t2).
Proof. exact delivered_other. Qed.

Example C03_nv_registered :
  registered nv_dict (AName [118; 52]) 8196 0 4 /\ registered nv_dict (AName [82; 46; 109]) 12288 3 21 /\
  registered nv_dict (ARec 12288 3) 12288 3 21 /\ registered nv_dict (AIndex 8207) 8207 0 15 /\
  holds_var nv_dict 12288 3 21 [109] /\
  zassoc 21 STRUCT_TYPES = Some (PStruct true 64) /\ in_range true 64 (-2) = true /\
  valid_sched (expedited (Some 8) false) [8; 1] 8.
Proof.
  unfold registered, entry_rw. cbn [resolve]. vm_compute.
  repeat split; eauto; try discriminate; try reflexivity.
Qed.

(* INTEGER64 record member written by "R.m" as -2 (two segments: 7 + 1 bytes); a 20-byte DOMAIN *)
Example C03_nv_roundtrip :
  let w0 : lworld := {| w_s := fresh_state []; w_q := [[96; 0; 0; 0; 0; 0; 0; 0]]; w_log := [] |} in
  snd (roundtrip nv_dict w0 (AName [82; 46; 109]) (PInt (-2)) [8; 1]) =
    VL [VZ (-2); VZ (-2); VB [254; 255; 255; 255; 255; 255; 255; 255]] /\
  snd (roundtrip nv_dict w0 (AIndex 8207) (PBytes [1; 2; 3; 4; 5; 6; 7; 8; 9; 10; 11; 12; 13; 14; 15; 16; 17; 18; 19; 20]) [20; 13; 6]) =
    VL [VB [1; 2; 3; 4; 5; 6; 7; 8; 9; 10; 11; 12; 13; 14; 15; 16; 17; 18; 19; 20];
        VB [1; 2; 3; 4; 5; 6; 7; 8; 9; 10; 11; 12; 13; 14; 15; 16; 17; 18; 19; 20];
        VB [1; 2; 3; 4; 5; 6; 7; 8; 9; 10; 11; 12; 13; 14; 15; 16; 17; 18; 19; 20]] /\
  notify_all [1413; 1414] [(1413, []); (1414, [])]
     [(1413, [1]); (385, [9]); (1414, [2]); (1413, [3]); (1792, [5])] = [(1413, [[1]; [3]]); (1414, [[2]])].
Proof. vm_compute. repeat split; reflexivity. Qed.

(* Source tie (DESIGN.md 4.3): source text -> model.  Gen/SrcC01.v is regenerated from the text of canopen/sdo/client.py on every run
   (tools/tables/src_c01.py): WritableStream.__init__ / write / close and ReadableStream.__init__ / read as state
   skeletons (which branch, byte 0 of the request, payload bytes copied, _toggle / _done / _error / pos / size
   afterwards, which exception).  The *_from_src functions (Proofs/Src_eq_c01.v) are the model functions rebuilt around
   those skeletons: the only decisions left outside the translated text are struct packing, the request/response
   exchange and slicing.  The client half of the composition the theorems above speak about IS what the current source text says. *)
Theorem C03_src_ws_init : forall (S : Type) (peer : S -> list Z -> S * list (list Z)) (w : world) idx sub size force,
  ws_init peer w idx sub size force = ws_init_from_src peer w idx sub size force.
Proof. exact @src_ws_init_eq. Qed.

Theorem C03_src_ws_write : forall (S : Type) (peer : S -> list Z -> S * list (list Z)) (w : world) st b,
  ws_write peer w st b = ws_write_from_src peer w st b.
Proof. exact @src_ws_write_eq. Qed.

Theorem C03_src_ws_close : forall (S : Type) (peer : S -> list Z -> S * list (list Z)) (w : world) st,
  ws_close peer w st = ws_close_from_src peer w st.
Proof. exact @src_ws_close_eq. Qed.

Theorem C03_src_rs_init : forall (S : Type) (peer : S -> list Z -> S * list (list Z)) (w : world) idx sub,
  rs_init peer w idx sub = rs_init_from_src peer w idx sub.
Proof. exact @src_rs_init_eq. Qed.

Theorem C03_src_rs_read : forall (S : Type) (peer : S -> list Z -> S * list (list Z)) (f : nat) (w : world) st size,
  0 <= size ->
  rs_read peer (Datatypes.S f) w st = rs_read_from_src peer (rs_read peer f) w st size.
Proof. exact @src_rs_read_eq. Qed.

(* readinto(b) with a buffer of cap bytes: read(7) only when nothing is pending, min(cap, pending) bytes handed out,
   the rest kept *)
Theorem C03_src_rs_readinto : forall (S : Type) (peer : S -> list Z -> S * list (list Z)) rf cap (w : world) st,
  0 <= cap -> rs_readinto peer rf cap w st = rs_readinto_from_src peer rf cap w st.
Proof. exact @src_rs_readinto_eq. Qed.

(* the exchange itself: which frame is awaited, when the queue is replaced, that ONE request is sent, and that a missing
   response is answered by the abort frame [0x80, 0, 0, 0, code little-endian] with the code in the source text (0x05040000)
   after MAX_RETRIES (regenerated: SDO_MAX_RETRIES) attempts *)
Theorem C03_src_request_response : forall (S : Type) (peer : S -> list Z -> S * list (list Z)) (w : world) req,
  request_response peer w req = request_response_from_src peer w req.
Proof. exact @src_request_response_eq. Qed.

Theorem C03_src_read_response : forall (S : Type) (w : @world S), read_response w = read_response_from_src w.
Proof. exact @src_read_response_eq. Qed.

Theorem C03_src_abort_frame : forall code, SdoClient.abort_frame code = abort_frame_from_src code.
Proof. exact src_abort_eq. Qed.

Theorem C03_src_upload_truncation : forall odt response_size data,
  truncate odt response_size data = truncate_from_src odt response_size data.
Proof. exact src_upload_eq. Qed.

Print Assumptions C03_typed_roundtrip.
Print Assumptions C03_bool_roundtrip.
Print Assumptions C03_real_roundtrip.
Print Assumptions C03_bytes_roundtrip.
Print Assumptions C03_ascii_roundtrip.
Print Assumptions C03_codec_roundtrip.
Print Assumptions C03_registered_reachable.
Print Assumptions C03_channel_isolation.
Print Assumptions C03_other_traffic_invisible.
Print Assumptions C03_interleaving.
Print Assumptions C03_src_ws_init.
Print Assumptions C03_src_ws_write.
Print Assumptions C03_src_ws_close.
Print Assumptions C03_src_rs_init.
Print Assumptions C03_src_rs_read.
Print Assumptions C03_src_upload_truncation.
Print Assumptions C03_src_request_response.
Print Assumptions C03_src_read_response.
Print Assumptions C03_src_abort_frame.
Print Assumptions C03_src_rs_readinto.
