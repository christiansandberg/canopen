(* The SDO client (Model/SdoClient.v) against the reference server behind a medium with at most one pending
   disturbance (Model/RefServer.v): C01 and C07.
   Every step of a transfer is one request_response; [exchange] says what it returns when the server answers.
   A step is specified by [outcome]: it succeeds with a postcondition, or it fails with an SDO error, and that
   takes a disturbance.  The undisturbed theorems of C01 and the disturbed ones of C07 are read off the same
   statement about each transfer.  The server's state during a transfer is kept as [set_x x s0], s0 its
   state before, so that store, violations and style need no bookkeeping of their own. *)
From Coq Require Import ZArith List Bool Lia.
From CV Require Import Base.Val Base.Bits Base.Bytes Base.Tys Gen.SdoTables Model.RefServer Model.SdoClient.
Import ListNotations.
Open Scope Z_scope.

Notation rr := (request_response net_step).

Lemma pad_to_length n l : (length l <= n)%nat -> length (pad_to n l) = n.
Proof. intros. unfold pad_to. rewrite app_length, repeat_length. lia. Qed.
Lemma firstn_pad_to n l : firstn (length l) (pad_to n l) = l.
Proof. unfold pad_to. rewrite firstn_app, firstn_all, Nat.sub_diag. cbn. apply app_nil_r. Qed.
Lemma all_zero_repeat n : all_zero (repeat 0 n) = true.
Proof. induction n; cbn; auto. Qed.
Lemma skipn_pad_to_zero n l : all_zero (skipn (length l) (pad_to n l)) = true.
Proof. unfold pad_to. rewrite skipn_app, skipn_all, Nat.sub_diag. cbn. apply all_zero_repeat. Qed.

Lemma b2z_range b : 0 <= b2z b <= 1.
Proof. destruct b; cbn; lia. Qed.

Lemma is_nil_true {A} (l : list A) : is_nil l = true -> l = [].
Proof. destruct l; [auto|discriminate]. Qed.
Lemma is_nil_false {A} (l : list A) : is_nil l = false -> l <> [].
Proof. destruct l; [discriminate|intros _; discriminate]. Qed.

Lemma mux_decode idx sub : mux_ok idx sub -> le_decode (mux_bytes idx sub) = mux_key idx sub.
Proof. unfold mux_ok, mux_bytes, mux_key. intros [H1 H2]. cbn [le_decode]. Z.div_mod_to_equations. lia. Qed.

Lemma pack_sdo_ok cmd idx sub : 0 <= cmd < 256 -> mux_ok idx sub ->
  pack_sdo cmd idx sub = Ok (cmd :: mux_bytes idx sub).
Proof.
  unfold mux_ok, pack_sdo, mux_bytes. intros Hc [H1 H2].
  replace ((0 <=? cmd) && (cmd <? 256) && (0 <=? idx) && (idx <? 65536) && (0 <=? sub) && (sub <? 256))
    with true by lia. reflexivity.
Qed.

Lemma mux_idx idx sub : mux_ok idx sub -> (idx mod 256 + 256 * (idx / 256) =? idx) && (sub =? sub) = true.
Proof. unfold mux_ok. Z.div_mod_to_equations. lia. Qed.

Lemma mux_differs idx sub m : mux_ok idx sub -> Forall (fun b => 0 <= b < 256) m -> m <> mux_bytes idx sub ->
  match m with [m1; m2; m3] => (m1 + 256 * m2 =? idx) && (m3 =? sub) = false | _ => True end.
Proof.
  unfold mux_ok, mux_bytes. intros Hm Hr Hne. destruct m as [|m1 [|m2 [|m3 [|]]]]; auto.
  inversion Hr as [|? ? R1 Hr2]; subst. inversion Hr2 as [|? ? R2 Hr3]; subst. inversion Hr3 as [|? ? R3 _]; subst.
  destruct ((m1 + 256 * m2 =? idx) && (m3 =? sub)) eqn:E; [|reflexivity].
  exfalso. apply Hne. apply andb_prop in E as [E1 E2]. apply Z.eqb_eq in E1, E2. subst idx sub.
  rewrite (Z.mul_comm 256 m2), Z.mod_add, Z.div_add, Z.mod_small, Z.div_small by lia. reflexivity.
Qed.

(* a disturbance of the command specifier or of the toggle bit: one of the two *)
Lemma xor0_hits m : 0 < m < 256 -> m mod 16 = 0 -> Z.land m 224 <> 0 \/ m = 16.
Proof.
  intros Hm Hm16. assert (E : exists q, m = 16 * q /\ 1 <= q <= 15) by (exists (m / 16); Z.div_mod_to_equations; lia).
  destruct E as (q & -> & Hq).
  assert (Eq : q = 1 \/ q = 2 \/ q = 3 \/ q = 4 \/ q = 5 \/ q = 6 \/ q = 7 \/ q = 8 \/ q = 9 \/ q = 10 \/ q = 11 \/
               q = 12 \/ q = 13 \/ q = 14 \/ q = 15) by lia.
  decompose [or] Eq; subst q; [right; reflexivity|left; discriminate..].
Qed.

Definition decode_resp (r : frame) : res frame :=
  match r with
  | [] => Err E_STRUCT
  | c :: _ => if c =? 128 then if (length r <? 8)%nat then Err E_STRUCT
                               else Abort (le_decode (firstn 4 (skipn 4 r)))
              else Ok r
  end.

(* against any peer: the first frame that arrives is taken for the response; when none arrives
   the time-out abort goes out *)
Lemma rr_spec {S} (peer : S -> frame -> S * list frame) (w : @world S) req :
  request_response peer w req =
  let '(s1, rs) := peer (w_s w) req in
  let log1 := rev (map (cons 1) rs) ++ (0 :: req) :: w_log w in
  match rs with
  | [] => let '(s2, rs2) := peer s1 (abort_frame TIMEOUT_ABORT) in
          ({| w_s := s2; w_q := rs2; w_log := rev (map (cons 1) rs2) ++ (0 :: abort_frame TIMEOUT_ABORT) :: log1 |},
           Err E_SDOCOMM)
  | r :: q => ({| w_s := s1; w_q := q; w_log := log1 |}, decode_resp r)
  end.
Proof.
  unfold request_response.
  replace (match w_q w with [] => w | _ :: _ => set_q [] w end) with (set_q [] w) by (destruct w as [s [|] l]; reflexivity).
  unfold send_request, read_response. cbn [set_q w_s w_q w_log app].
  destruct (peer (w_s w) req) as [s1 [|[|c t] q]]; cbn [w_s w_q w_log]; [| reflexivity |].
  - change (E_SDOCOMM =? E_SDOCOMM) with true. cbn iota.
    destruct (peer s1 (abort_frame TIMEOUT_ABORT)). reflexivity.
  - unfold decode_resp. change RESPONSE_ABORTED with 128.
    destruct (c =? 128); [destruct (length (c :: t) <? 8)%nat|]; reflexivity.
Qed.

Lemma decode_resp_ok r resp : decode_resp r = Ok resp -> resp = r.
Proof.
  destruct r as [|c t]; [discriminate|]. unfold decode_resp.
  destruct (c =? 128); [destruct (length (c :: t) <? 8)%nat; discriminate|congruence].
Qed.

Lemma decode_resp_genuine r0 : nth 0 r0 0 <> 128 -> r0 <> [] -> decode_resp r0 = Ok r0.
Proof.
  intros Hc Hne. destruct r0 as [|c t]; [congruence|]. cbn in Hc. unfold decode_resp.
  replace (c =? 128) with false by lia. reflexivity.
Qed.

(* results a transfer may end with *)
Definition rclass {A} (r : res A) : Prop := (exists a, r = Ok a) \/ sdo_error r.

Lemma decode_resp_class r : frame8 r -> rclass (decode_resp r).
Proof.
  unfold frame8, decode_resp, rclass, sdo_error. intros H. destruct r as [|c t]; [discriminate|].
  destruct (c =? 128).
  - replace (length (c :: t) <? 8)%nat with false by (rewrite H; reflexivity). right. right. eauto.
  - left. eauto.
Qed.

(* the reference server answers with 8 bytes and keeps a 3-byte multiplexer *)
Lemma srv_abort_len (mux : list Z) c : length mux = 3%nat -> Forall frame8 [srv_abort mux c].
Proof. intros H. repeat constructor. unfold frame8, srv_abort. cbn. rewrite app_length, H. reflexivity. Qed.

Lemma frame8_cons_mux c (mux tl : list Z) : length mux = 3%nat -> length tl = 4%nat -> Forall frame8 [c :: mux ++ tl].
Proof. intros H1 H2. repeat constructor. unfold frame8. cbn [length]. rewrite app_length, H1, H2. reflexivity. Qed.

Lemma clamp7_le x : (clamp7 x <= 7)%nat.
Proof. unfold clamp7. lia. Qed.

Definition seg_k (segs : list Z) : nat := match segs with [] => 7%nat | x :: _ => clamp7 x end.

Lemma seg_k_le segs : (seg_k segs <= 7)%nat.
Proof. unfold seg_k. destruct segs; [lia|apply clamp7_le]. Qed.

Lemma frame8_seg c k (rest : list Z) : (k <= 7)%nat -> Forall frame8 [c :: pad_to 7 (firstn k rest)].
Proof. intros H. repeat constructor. unfold frame8. cbn [length]. rewrite pad_to_length; [reflexivity|]. rewrite firstn_length. lia. Qed.

Lemma ref_step_wf s fr : xfer_wf (s_x s) ->
  xfer_wf (s_x (fst (ref_step s fr))) /\ Forall frame8 (olist (snd (ref_step s fr))).
Proof.
  intros Hx. unfold ref_step.
  destruct (negb (length fr =? 8)%nat) eqn:El; [cbn; auto|].
  assert (Lm : length (firstn 3 (skipn 1 fr)) = 3%nat).
  { apply negb_false_iff, Nat.eqb_eq in El. rewrite firstn_length, skipn_length. lia. }
  pose proof (srv_abort_len [0; 0; 0] 84148225 eq_refl) as Hno.
  destruct (_ =? 1).
  { unfold srv_init_download. destruct (Z.testbit _ 1); cbn; (split; [auto|apply frame8_cons_mux; auto]). }
  destruct (_ =? 0).
  { unfold srv_download_segment. destruct (s_x s) as [|mux size buf t|]; cbn [xfer_wf] in Hx; [cbn; auto| |cbn; auto].
    destruct (negb (Bool.eqb _ t)); [cbn; split; [auto|apply srv_abort_len; auto]|].
    destruct (Z.testbit _ 0); cbn; (split; [auto|repeat constructor]). }
  destruct (_ =? 2).
  { unfold srv_init_upload. destruct (zassoc _ _) as [v|]; [|cbn; split; [auto|apply srv_abort_len; auto]].
    destruct (_ && _ && _) eqn:Ee; cbn; (split; [auto|apply frame8_cons_mux; auto]).
    - apply pad_to_length. unfold zlen in Ee. lia.
    - destruct (st_size_ind _); reflexivity. }
  destruct (_ =? 3).
  { unfold srv_upload_segment. destruct (s_x s) as [| |mux rest t segs]; cbn [xfer_wf] in Hx; [cbn; auto|cbn; auto|].
    destruct (negb (Bool.eqb _ t)); [cbn; split; [auto|apply srv_abort_len; auto]|].
    fold (seg_k segs).
    destruct (if st_lazy_end _ then _ else _); cbn; (split; [auto|apply frame8_seg, seg_k_le]). }
  destruct (_ =? 4); cbn; [auto|]. split; [auto|apply srv_abort_len; auto].
Qed.

Lemma apply_fault_wf f rs : fault_wf f -> Forall frame8 rs -> Forall frame8 (apply_fault f rs).
Proof.
  intros Hf Hr. destruct f; cbn [apply_fault fault_wf] in *; auto.
  - induction Hr as [|r rs Hr1 Hr2 IH]; cbn [map]; constructor; auto.
    destruct r; [discriminate|]. unfold frame8 in *. cbn [length] in *. auto.
  - induction Hr as [|r rs Hr1 Hr2 IH]; cbn [map]; constructor; auto.
    destruct r as [|c t]; [discriminate|]. unfold frame8 in *. cbn [length] in *.
    rewrite app_length, skipn_length, Hf. lia.
  - apply Forall_app; auto.
Qed.

Lemma net_step_wf n req : net_wf n -> net_wf (fst (net_step n req)) /\ Forall frame8 (snd (net_step n req)).
Proof.
  unfold net_wf, net_step. intros [Hx Hf].
  destruct (ref_step_wf (n_srv n) req Hx) as [Hx' Ho]. destruct (ref_step (n_srv n) req) as [s' o]. cbn [fst snd] in *.
  destruct (n_fault n) as [[[|k] f]|]; [|cbn; auto|cbn; auto].
  pose proof (apply_fault_wf f (olist o) Hf Ho) as Haf.
  destruct f; cbn [fst snd n_srv n_fault]; auto. destruct o; cbn; auto.
  inversion Ho; auto.
Qed.

Lemma abort_frame_len c : length (abort_frame c) = 8%nat.
Proof. unfold abort_frame. cbn [app length]. rewrite le_encode_length. reflexivity. Qed.

(* what every request/response exchange guarantees, whatever the medium does *)
Lemma rr_any (w : cworld) req : net_wf (w_s w) -> let '(w', r) := rr w req in net_wf (w_s w') /\ rclass r.
Proof.
  intros Hwf. rewrite rr_spec.
  destruct (net_step_wf _ req Hwf) as [Hwf1 Hrs].
  destruct (net_step (w_s w) req) as [n1 [|r q]]; cbn [fst snd] in *.
  - destruct (net_step_wf _ (abort_frame TIMEOUT_ABORT) Hwf1) as [Hwf2 _].
    destruct (net_step n1 _) as [n2 rs2]. split; [auto|right; left; reflexivity].
  - split; [auto|]. inversion Hrs; subst. apply decode_resp_class; auto.
Qed.

(* a property of the world that every exchange keeps is kept by every transfer *)
Definition rr_closed (P : cworld -> Prop) : Prop := forall w req, P w -> P (fst (rr w req)).

(* the goal speaks of the world after a function that makes one exchange and returns its world in every
   branch: HP for that exchange, then branch by branch *)
Ltac rr_step HP :=
  match goal with
  | |- context [request_response net_step ?w ?req] =>
      let H := fresh "Hrr" in
      pose proof (HP w req) as H; destruct (request_response net_step w req) as [? []]; cbn [fst] in H;
      repeat match goal with |- context [if ?c then _ else _] => destruct c end; cbn [fst]; auto
  end.

Section Closed.
  Context (P : cworld -> Prop) (HP : rr_closed P).

  Lemma ws_init_closed w idx sub size force : P w -> P (fst (fst (ws_init net_step w idx sub size force))).
  Proof.
    intros Hw. unfold ws_init.
    destruct (match size with None => true | Some _ => _ end); [|destruct (pack_sdo _ idx sub); auto].
    destruct (match size with None => Ok _ | Some _ => _ end); auto.
    destruct (pack_sdo _ idx sub); auto. rr_step HP.
  Qed.

  Lemma ws_write_closed w st b : P w -> P (fst (fst (ws_write net_step w st b))).
  Proof.
    intros Hw. unfold ws_write.
    destruct (ws_done st); [auto|]. destruct (ws_exp st); [|rr_step HP].
    destruct (zlen b <? _); [auto|]. destruct (4 <? zlen b); [auto|]. rr_step HP.
  Qed.

  Lemma ws_close_closed w st : P w -> P (fst (fst (ws_close net_step w st))).
  Proof. intros Hw. unfold ws_close. destruct (negb (ws_done st) && _); [|auto]. rr_step HP. Qed.

  Lemma write_sched_closed sched : forall w st data, P w -> P (fst (fst (write_sched net_step w st data sched))).
  Proof.
    induction sched as [|k ks IH]; intros w st data Hw; cbn [write_sched]; [auto|].
    pose proof (ws_write_closed w st (firstn (Z.to_nat k) data) Hw) as H.
    destruct (ws_write net_step w st (firstn (Z.to_nat k) data)) as [[w1 st1] []]; cbn [fst] in *; auto.
  Qed.

  Lemma with_write_closed w idx sub size force data sched :
    P w -> P (fst (with_write net_step w idx sub size force data sched)).
  Proof.
    intros Hw. unfold with_write.
    pose proof (ws_init_closed w idx sub size force Hw) as H0.
    destruct (ws_init net_step w idx sub size force) as [[w0 st0] r0]. cbn [fst] in H0.
    assert (Hc : forall w1 st1, P w1 -> P (fst (fst (ws_close net_step w1 st1)))) by (intros; apply ws_close_closed; auto).
    destruct r0.
    2, 3: specialize (Hc w0 st0 H0); destruct (ws_close net_step w0 st0) as [[w2 st2] r2]; exact Hc.
    pose proof (write_sched_closed sched w0 st0 data H0) as H1.
    destruct (write_sched net_step w0 st0 data sched) as [[w1 st1] r1].
    specialize (Hc w1 st1 H1). destruct (ws_close net_step w1 st1) as [[w2 st2] r2]. exact Hc.
  Qed.

  Lemma rs_init_closed w idx sub : P w -> P (fst (fst (rs_init net_step w idx sub))).
  Proof. intros Hw. unfold rs_init. destruct (pack_sdo _ idx sub); cbn [fst]; auto. rr_step HP. Qed.

  Lemma rs_read_closed fuel : forall w st, P w -> P (fst (fst (rs_read net_step fuel w st))).
  Proof.
    induction fuel as [|fuel IH]; intros w st Hw; cbn [rs_read];
      (destruct (negb _); [auto|]); (destruct (rs_done st); [auto|]); (destruct (rs_exp st); [auto|]); [auto|].
    rr_step HP.
  Qed.

  Lemma readall_closed rf fuel : forall w st acc, P w -> P (fst (fst (readall net_step rf fuel w st acc))).
  Proof.
    induction fuel as [|fuel IH]; intros w st acc Hw; cbn [readall]; [auto|].
    pose proof (rs_read_closed rf w st Hw) as H.
    destruct (rs_read net_step rf w st) as [[w1 st1] [[|x d]| |]]; cbn [fst] in *; auto.
  Qed.

  Lemma sdo_upload_closed fuel w idx sub odt : P w -> P (fst (sdo_upload net_step fuel w idx sub odt)).
  Proof.
    intros Hw. unfold sdo_upload, read_whole.
    pose proof (rs_init_closed w idx sub Hw) as H0.
    destruct (rs_init net_step w idx sub) as [[w0 st0] []]; cbn [fst] in *; auto. destruct (rs_exp st0); cbn [fst]; auto.
    pose proof (readall_closed fuel fuel w0 st0 [] H0) as H1.
    destruct (readall net_step fuel fuel w0 st0 []) as [[w1 st1] []]; cbn [fst] in *; auto.
  Qed.
End Closed.

Lemma net_wf_closed : rr_closed (fun w => net_wf (w_s w)).
Proof. intros w req H. pose proof (rr_any w req H) as Hr. destruct (rr w req). apply Hr. Qed.

Definition slot_after (o : option (nat * fault)) : option (nat * fault) :=
  match o with Some (Datatypes.S j, f) => Some (j, f) | _ => None end.

(* the server answers r0; the medium passes it on unless its disturbance is due now *)
Lemma net_step_answer n req s' r0 : ref_step (n_srv n) req = (s', Some r0) ->
  match n_fault n with
  | Some (O, f) => snd (net_step n req) = apply_fault f [r0] /\
                   (apply_fault f [r0] <> [] -> fst (net_step n req) = net_of s')
  | o => net_step n req = ({| n_fault := slot_after o; n_srv := s' |}, [r0])
  end.
Proof.
  unfold net_step. destruct (ref_step (n_srv n) req) as [s1 o]. intros [= -> ->].
  destruct (n_fault n) as [[[|j] f]|]; [|reflexivity|reflexivity].
  destruct f; cbn; split; auto; congruence.
Qed.

Lemma exchange (w : cworld) req s' r0 :
  net_wf (w_s w) -> ref_step (n_srv (w_s w)) req = (s', Some r0) -> nth 0 r0 0 <> 128 -> r0 <> [] ->
  let '(w', r) := rr w req in
  net_wf (w_s w') /\ rclass r /\
  (forall resp, r = Ok resp ->
     n_srv (w_s w') = s' /\ n_fault (w_s w') = slot_after (n_fault (w_s w)) /\
     match n_fault (w_s w) with
     | Some (O, f) => hd_error (apply_fault f [r0]) = Some resp
     | _ => resp = r0
     end) /\
  (match n_fault (w_s w) with Some (O, _) => False | _ => True end -> r = Ok r0).
Proof.
  intros Hwf Hr Hc Hne.
  pose proof (rr_any w req Hwf) as Hany. rewrite rr_spec in *.
  pose proof (decode_resp_genuine r0 Hc Hne) as Hd0.
  pose proof (net_step_answer (w_s w) req s' r0 Hr) as Hn.
  destruct (n_fault (w_s w)) as [[[|j] f]|].
  { destruct Hn as [Hrs Hs]. destruct (net_step (w_s w) req) as [n1 rs]. cbn [fst snd] in *. subst rs.
    destruct (apply_fault f [r0]) as [|x q].
    - destruct (net_step n1 _). destruct Hany as (H1 & H2). split; [auto|]. split; [auto|]. split; [discriminate|intros []].
    - destruct Hany as (H1 & H2). split; [auto|]. split; [auto|]. split; [|intros []].
      intros resp Hresp. apply decode_resp_ok in Hresp. subst. cbn [w_s]. rewrite Hs by discriminate. auto. }
  (* no disturbance is due *)
  all: rewrite Hn in *.
  all: rewrite Hd0. all: split; [apply Hany|]. all: split; [left; eauto|]. all: split; [intros resp [= <-]|]; auto.
Qed.

(* A step of a transfer fails: with an SDO error, which takes a disturbance. *)
Definition failed {A} (w : cworld) (r : res A) : Prop :=
  match r with
  | Ok _ => False
  | Err k => k = E_SDOCOMM /\ n_fault (w_s w) <> None
  | Abort _ => n_fault (w_s w) <> None
  end.

(* How a step that starts in w ends: well-formed; with a result that has P, and no disturbance pending
   if none was; or failed. *)
Definition outcome {A} (w w' : cworld) (r : res A) (P : A -> Prop) : Prop :=
  net_wf (w_s w') /\
  match r with
  | Ok a => P a /\ (n_fault (w_s w) = None -> n_fault (w_s w') = None)
  | _ => failed w r
  end.

Lemma failed_error {A} w (r : res A) : failed w r -> sdo_error r.
Proof. destruct r; cbn; [intros []|intros [-> _]; left; reflexivity|right; eauto]. Qed.

(* a step from w to w1 that did not fail, then one from w1 to w2 *)
Lemma outcome_trans {A} w w1 w2 (r : res A) P :
  (n_fault (w_s w) = None -> n_fault (w_s w1) = None) -> outcome w1 w2 r P -> outcome w w2 r P.
Proof. intros H [Hwf Ho]. split; [auto|]. destruct r; cbn in *; intuition. Qed.

Lemma outcome_clean {A} w w' (r : res A) P : outcome w w' r P -> n_fault (w_s w) = None ->
  exists a, r = Ok a /\ P a /\ net_wf (w_s w') /\ n_fault (w_s w') = None.
Proof. intros [Hwf Ho] Hf. destruct r as [a| |]; cbn in Ho; [exists a|..]; intuition. Qed.

Lemma outcome_any {A} w w' (r : res A) P : outcome w w' r P -> (exists a, r = Ok a /\ P a) \/ sdo_error r.
Proof. intros [_ Ho]. destruct r as [a| |]; [left; exists a; intuition|right; apply (failed_error w), Ho..]. Qed.

Lemma outcome_weaken {A} w w' (r : res A) (P Q : A -> Prop) :
  (forall a, P a -> Q a) -> outcome w w' r P -> outcome w w' r Q.
Proof. intros HPQ [Hwf Ho]. split; [auto|]. destruct r; [|exact Ho..]. split; [apply HPQ|]; apply Ho. Qed.

Lemma answered (w : cworld) req s' r0 :
  net_wf (w_s w) -> ref_step (n_srv (w_s w)) req = (s', Some r0) -> nth 0 r0 0 <> 128 -> r0 <> [] ->
  let '(w', r) := rr w req in
  outcome w w' r (fun resp =>
    n_srv (w_s w') = s' /\ n_fault (w_s w') = slot_after (n_fault (w_s w)) /\
    match n_fault (w_s w) with
    | Some (O, f) => hd_error (apply_fault f [r0]) = Some resp
    | _ => resp = r0
    end).
Proof.
  intros Hwf Hr Hc Hne. pose proof (exchange w req s' r0 Hwf Hr Hc Hne) as H.
  destruct (rr w req) as [w' r]. destruct H as (Hwf' & Hcl & Hok & Hq). split; [auto|].
  assert (Hd : (forall resp, r <> Ok resp) -> n_fault (w_s w) <> None).
  { intros Hn Hf. rewrite Hf in Hq. apply (Hn r0), Hq, I. }
  destruct r as [resp|k|c]; cbn.
  - split; [auto|]. intros Hf. destruct (Hok _ eq_refl) as (_ & -> & _). rewrite Hf. reflexivity.
  - split; [|apply Hd; discriminate]. destruct Hcl as [[a Ha]|[He|[c He]]]; [discriminate|congruence|discriminate].
  - apply Hd; discriminate.
Qed.

(* expedited: __init__ sends nothing, the one write() sends the initiate request with the data *)
Definition exp_cmd (z : Z) : Z := Z.lor (Z.lor (Z.lor 32 2) 1) (Z.shiftl (4 - z) 2).

Lemma ref_dl_init_exp s idx sub (b : list Z) : 1 <= zlen b <= 4 ->
  ref_step s ((exp_cmd (zlen b) :: mux_bytes idx sub) ++ pad_to 4 b) =
  (set_x XNone (store_put (mux_bytes idx sub) b s), Some (96 :: mux_bytes idx sub ++ [0; 0; 0; 0])).
Proof.
  intros H. destruct b as [|b0 [|b1 [|b2 [|b3 [|b4 b]]]]]; unfold zlen in H; cbn [length] in H; try lia; reflexivity.
Qed.

(* command byte of a download segment, as the reference server and as the library's server read it *)
Definition seg_cmd (t last : bool) (n : Z) : Z :=
  Z.lor (if last then Z.lor (Z.lor 0 (16 * b2z t)) 1 else Z.lor 0 (16 * b2z t)) (Z.shiftl (7 - n) 1).

Lemma seg_cmd_bits t last n : 0 <= n <= 7 ->
  let c := seg_cmd t last n in
  (c / 32 = 0 /\ Z.testbit c 4 = t /\ Z.testbit c 0 = last /\ (c / 2) mod 8 = 7 - n) /\
  (Z.land c 224 = 0 /\ Z.land c 16 = 16 * b2z t /\ Z.land (Z.shiftr c 1) 7 = 7 - n /\ (Z.land c 1 =? 0) = negb last).
Proof.
  intros H. assert (E : n = 0 \/ n = 1 \/ n = 2 \/ n = 3 \/ n = 4 \/ n = 5 \/ n = 6 \/ n = 7) by lia.
  destruct t, last; decompose [or] E; subst; vm_compute; repeat split.
Qed.

Lemma toggle_flip t : Z.lxor (16 * b2z t) 16 = 16 * b2z (negb t).
Proof. destruct t; reflexivity. Qed.

Definition size_differs (size : option Z) (buf : list Z) : bool :=
  match size with Some z => negb (z =? zlen buf) | None => false end.

(* the server's state during a download is its state s0 before, but for the transfer *)
Lemma ref_dl_seg s0 mux size buf t last (b : list Z) : (length b <= 7)%nat ->
  ref_step (set_x (XDl mux size buf t) s0) (seg_cmd t last (zlen b) :: pad_to 7 b) =
  (if last then set_x XNone (store_put mux (buf ++ b) (flag_if (size_differs size (buf ++ b)) V_SIZE s0))
   else set_x (XDl mux size (buf ++ b) (negb t)) s0,
   Some [32 + 16 * b2z t; 0; 0; 0; 0; 0; 0; 0]).
Proof.
  intros Hl.
  assert (Hn : 0 <= zlen b <= 7) by (unfold zlen; lia).
  destruct (seg_cmd_bits t last (zlen b) Hn) as [(H5 & H4 & H0 & Hnn) _].
  unfold ref_step. cbn [length nth].
  rewrite pad_to_length by auto. cbn [Nat.eqb negb].
  rewrite H5. cbn [Z.eqb]. unfold srv_download_segment. cbn [nth set_x s_x]. rewrite H4, H0, Hnn.
  rewrite Bool.eqb_reflx. cbn [negb].
  replace (7 - Z.to_nat (7 - zlen b))%nat with (length b) by (unfold zlen; lia).
  cbn [skipn]. rewrite skipn_pad_to_zero, firstn_pad_to. cbn [negb flag_if].
  unfold size_differs. destruct last; [destruct (match size with Some _ => _ | None => _ end)|]; reflexivity.
Qed.

(* WritableStream, segmented: a stream is determined by size, position, toggle, _done and _error; between two
   writes it is open *)
Definition seg_stream (size : option Z) (pos : Z) (t done : bool) (err : option (option Z)) : wstream :=
  {| ws_size := size; ws_pos := pos; ws_toggle := 16 * b2z t; ws_exp := None; ws_done := done; ws_error := err |}.
Definition open_stream (size : option Z) (pos : Z) (t : bool) : wstream := seg_stream size pos t false None.

(* against any peer, close() of an open stream sends an empty last segment *)
Lemma ws_close_open {S} (peer : S -> frame -> S * list frame) (w : @world S) size pos t :
  ws_close peer w (open_stream size pos t) =
  let '(w1, r) := request_response peer w (seg_cmd t true 0 :: pad_to 7 []) in
  match r with
  | Ok _ => (w1, seg_stream size pos t true None, Ok tt)
  | Err k => (w1, open_stream size pos t, Err k)
  | Abort c => (w1, open_stream size pos t, Abort c)
  end.
Proof.
  unfold ws_close, open_stream, seg_stream. cbn [ws_done ws_exp ws_toggle negb andb].
  replace (seg_cmd t true 0) with (Z.lor (Z.lor (Z.lor REQUEST_SEGMENT_DOWNLOAD NO_MORE_DATA) (16 * b2z t)) (Z.shiftl 7 1))
    by (destruct t; reflexivity).
  reflexivity.
Qed.

Definition size_ok (size : option Z) : Prop := match size with Some z => 0 <= z < 2 ^ 32 | None => True end.

Lemma ref_dl_init s idx sub size : size_ok size ->
  ref_step s ((match size with None => 32 | Some _ => 33 end :: mux_bytes idx sub) ++
              match size with None => [0; 0; 0; 0] | Some z => le_encode 4 z end) =
  (set_x (XDl (mux_bytes idx sub) size [] false) s, Some (96 :: mux_bytes idx sub ++ [0; 0; 0; 0])).
Proof.
  intros Hs. destruct size as [z|]; [|reflexivity].
  cbv iota. rewrite <- (le_decode_encode_small 4 z Hs) at 2. reflexivity.
Qed.

(* against any peer, __init__ of a segmented transfer makes the initiate exchange *)
Lemma ws_init_seg_eq {S} (peer : S -> frame -> S * list frame) (w : @world S) idx sub size force :
  mux_ok idx sub -> size_ok size -> expedited size force = false ->
  ws_init peer w idx sub size force =
  let '(w1, r) := request_response peer w ((match size with None => 32 | Some _ => 33 end :: mux_bytes idx sub) ++
                                          match size with None => [0; 0; 0; 0] | Some z => le_encode 4 z end) in
  match r with
  | Ok resp => if nth 0 resp 0 =? 96 then (w1, open_stream size 0 false, Ok tt)
               else (w1, seg_stream size 0 false true (Some None), Err E_SDOCOMM)
  | Err e => (w1, if e =? E_SDOCOMM then seg_stream size 0 false true (Some None) else open_stream size 0 false, Err e)
  | Abort c => (w1, seg_stream size 0 false true (Some (Some c)), Abort c)
  end.
Proof.
  intros Hm Hs He. unfold ws_init.
  replace (match size with None => true | Some z => (z <? 1) || (4 <? z) || force end) with true
    by (unfold expedited in He; destruct size; [destruct force|]; lia).
  unfold REQUEST_DOWNLOAD, SIZE_SPECIFIED, RESPONSE_DOWNLOAD.
  replace (match size with None => Ok [0; 0; 0; 0]
           | Some z => if (0 <=? z) && (z <? 2 ^ 32) then Ok (le_encode 4 z) else Err E_STRUCT end)
    with (Ok (match size with None => [0; 0; 0; 0] | Some z => le_encode 4 z end))
    by (destruct size as [z|]; [cbn in Hs; replace ((0 <=? z) && (z <? 2 ^ 32)) with true by lia|]; reflexivity).
  replace (match size with None => 32 | Some _ => Z.lor 32 1 end) with (match size with None => 32 | Some _ => 33 end)
    by (destruct size; reflexivity).
  rewrite pack_sdo_ok by (auto; destruct size; lia).
  destruct (request_response peer w _) as [w1 [resp|e|c]]; [destruct (nth 0 resp 0 =? 96)|destruct (e =? E_SDOCOMM)|]; reflexivity.
Qed.

Lemma ws_init_seg (w : cworld) idx sub size force :
  net_wf (w_s w) -> mux_ok idx sub -> size_ok size -> expedited size force = false ->
  let '(w', st', r) := ws_init net_step w idx sub size force in
  outcome w w' r (fun _ => st' = open_stream size 0 false /\
                           n_srv (w_s w') = set_x (XDl (mux_bytes idx sub) size [] false) (n_srv (w_s w))).
Proof.
  intros Hwf Hm Hs He. rewrite ws_init_seg_eq by auto.
  pose proof (answered w _ _ _ Hwf (ref_dl_init (n_srv (w_s w)) idx sub size Hs) ltac:(discriminate) ltac:(discriminate)) as H.
  destruct (rr w _) as [w1 [resp|k|c]]; [|exact H..].
  destruct H as (Hwf1 & (Hs1 & _ & Hresp) & Hf1). destruct (nth 0 resp 0 =? 96) eqn:Echk; (split; [auto|]); [auto|].
  split; [reflexivity|]. intros Hf. rewrite Hf in Hresp. subst resp. discriminate.
Qed.

Lemma ws_close_done {S} (peer : S -> frame -> S * list frame) (w : @world S) st :
  ws_done st = true -> ws_close peer w st = (w, st, Ok tt).
Proof. intros H. unfold ws_close. rewrite H. reflexivity. Qed.

(* close() after the body of the with-block has failed: whatever it does, the failure stands *)
Lemma close_after_failure (w w1 : cworld) st1 (r1 : res unit) (Q : cworld -> unit -> Prop) :
  net_wf (w_s w1) -> failed w r1 ->
  let '(w2, _, r2) := ws_close net_step w1 st1 in outcome w w2 (match r2 with Ok _ => r1 | _ => r2 end) (Q w2).
Proof.
  intros Hwf Hf. unfold ws_close.
  assert (Hd : n_fault (w_s w) <> None) by (destruct r1; cbn in Hf; tauto).
  assert (Hr1 : forall w2, net_wf (w_s w2) -> outcome w w2 r1 (Q w2)) by (intros w2 H2; split; [auto|destruct r1; [destruct Hf|exact Hf..]]).
  destruct (negb (ws_done st1) && _); [|auto].
  set (req := _ :: [0; 0; 0; 0; 0; 0; 0]).
  pose proof (rr_any w1 req Hwf) as H. destruct (rr w1 req) as [w2 [a|k|c]]; destruct H as (Hwf2 & Hc); [auto| |split; auto].
  split; [auto|]. split; [|auto]. destruct Hc as [[a Ha]|[He|[c He]]]; [discriminate|congruence|discriminate].
Qed.

Definition exp_stream (z idx sub : Z) : wstream :=
  {| ws_size := Some z; ws_pos := 0; ws_toggle := 0; ws_exp := Some (exp_cmd z :: mux_bytes idx sub); ws_done := false;
     ws_error := None |}.

Lemma ws_init_exp {S} (peer : S -> frame -> S * list frame) (w : @world S) idx sub z : mux_ok idx sub -> 1 <= z <= 4 ->
  ws_init peer w idx sub (Some z) false = (w, exp_stream z idx sub, Ok tt).
Proof.
  intros Hm Hz. unfold ws_init. replace ((z <? 1) || (4 <? z) || false) with false by lia.
  unfold REQUEST_DOWNLOAD, EXPEDITED, SIZE_SPECIFIED. fold (exp_cmd z).
  rewrite pack_sdo_ok; [reflexivity| |auto].
  assert (E : z = 1 \/ z = 2 \/ z = 3 \/ z = 4) by lia. decompose [or] E; subst; unfold exp_cmd; cbn; lia.
Qed.

(* against any peer, the one write() of an expedited transfer *)
Lemma ws_write_exp_eq {S} (peer : S -> frame -> S * list frame) (w : @world S) b idx sub : 1 <= zlen b <= 4 ->
  ws_write peer w (exp_stream (zlen b) idx sub) b =
  let '(w1, r) := request_response peer w ((exp_cmd (zlen b) :: mux_bytes idx sub) ++ pad_to 4 b) in
  match r with
  | Ok resp => if Z.land (nth 0 resp 0) 224 =? 96
               then (w1, {| ws_size := Some (zlen b); ws_pos := 0 + zlen b; ws_toggle := 0;
                            ws_exp := Some (exp_cmd (zlen b) :: mux_bytes idx sub); ws_done := true; ws_error := None |},
                     Ok (zlen b))
               else (w1, exp_stream (zlen b) idx sub, Err E_SDOCOMM)
  | Err e => (w1, exp_stream (zlen b) idx sub, Err e)
  | Abort c => (w1, exp_stream (zlen b) idx sub, Abort c)
  end.
Proof.
  intros Hb. unfold ws_write, exp_stream. cbn [ws_done ws_exp ws_size].
  replace (zlen b <? zlen b) with false by lia. replace (4 <? zlen b) with false by lia. reflexivity.
Qed.

Lemma ws_write_exp (w : cworld) b idx sub :
  net_wf (w_s w) -> 1 <= zlen b <= 4 ->
  let '(w', st', r) := ws_write net_step w (exp_stream (zlen b) idx sub) b in
  outcome w w' r (fun _ => ws_done st' = true /\
                           n_srv (w_s w') = set_x XNone (store_put (mux_bytes idx sub) b (n_srv (w_s w)))).
Proof.
  intros Hwf Hb. rewrite ws_write_exp_eq by auto.
  pose proof (answered w _ _ _ Hwf (ref_dl_init_exp (n_srv (w_s w)) idx sub b Hb) ltac:(discriminate) ltac:(discriminate)) as H.
  destruct (rr w _) as [w1 [resp|k|c]]; [|exact H..].
  destruct H as (Hwf1 & (Hs1 & _ & Hresp) & Hf1).
  destruct (Z.land (nth 0 resp 0) 224 =? 96) eqn:Echk; (split; [auto|]); [auto|].
  split; [reflexivity|]. intros Hf. rewrite Hf in Hresp. subst resp. discriminate.
Qed.

Lemma valid_seg_nil sched : valid_seg_sched sched 0 -> sched = [].
Proof. destruct sched; cbn; [auto|]. intros [H _]. lia. Qed.

(* One offer of the write loop, against any peer.  The data splits into the segment sent and the rest; the
   stream knows its size or not, and when it does the segment that leaves nothing is the last and ends the loop. *)
Lemma write_sched_open {S} (peer : S -> frame -> S * list frame) (w : @world S) size pos t (data : list Z) k ks :
  valid_seg_sched (k :: ks) (zlen data) -> (size = None \/ size = Some (pos + zlen data)) ->
  exists chunk rest, data = chunk ++ rest /\ (length chunk <= 7)%nat /\ valid_seg_sched ks (zlen rest) /\
    let last := match size with Some _ => is_nil rest | None => false end in
    write_sched peer w (open_stream size pos t) data (k :: ks) =
    let '(w1, r) := request_response peer w (seg_cmd t last (zlen chunk) :: pad_to 7 chunk) in
    match r with
    | Ok resp => if Z.land (nth 0 resp 0) 224 =? 32
                 then if last then (w1, seg_stream size (pos + zlen chunk) (negb t) true None, Ok tt)
                      else write_sched peer w1 (open_stream size (pos + zlen chunk) (negb t)) rest ks
                 else (w1, seg_stream size pos t true (Some None), Err E_SDOCOMM)
    | Err e => (w1, if e =? E_SDOCOMM then seg_stream size pos t true (Some None) else open_stream size pos t, Err e)
    | Abort c => (w1, seg_stream size pos t true (Some (Some c)), Abort c)
    end.
Proof.
  intros [Hk Hv] Hsz. set (n := Z.min k 7) in *.
  exists (firstn (Z.to_nat n) data), (skipn (Z.to_nat n) data).
  assert (Hcz : zlen (firstn (Z.to_nat n) data) = n) by (rewrite zlen_firstn; lia).
  assert (Hrz : zlen (skipn (Z.to_nat n) data) = zlen data - n) by (rewrite zlen_skipn; lia).
  split; [symmetry; apply firstn_skipn|]. split; [unfold zlen in Hcz; lia|]. split; [rewrite Hrz; exact Hv|].
  cbv zeta. cbn [write_sched]. unfold ws_write, open_stream, seg_stream, seg_cmd.
  cbn [ws_done ws_exp ws_toggle ws_pos ws_size ws_error]. rewrite toggle_flip.
  unfold REQUEST_SEGMENT_DOWNLOAD, NO_MORE_DATA, RESPONSE_SEGMENT_DOWNLOAD.
  replace (zlen (firstn (Z.to_nat k) data)) with k by (rewrite zlen_firstn; lia). fold n.
  replace (firstn (Z.to_nat n) (firstn (Z.to_nat k) data)) with (firstn (Z.to_nat n) data)
    by (rewrite firstn_firstn; f_equal; lia).
  replace (match size with Some z => z <=? pos + n | None => false end)
    with (match size with Some _ => is_nil (skipn (Z.to_nat n) data) | None => false end)
    by (destruct Hsz as [-> | ->]; [reflexivity|]; revert Hrz; destruct (skipn (Z.to_nat n) data); unfold zlen; cbn [length is_nil]; lia).
  rewrite Hcz. destruct (request_response peer w _) as [w1 [resp|e|c]]; [|destruct (e =? E_SDOCOMM); reflexivity|reflexivity].
  destruct (Z.land (nth 0 resp 0) 224 =? 32); [|reflexivity].
  destruct size; [|reflexivity]. revert Hrz. destruct (skipn (Z.to_nat n) data); [intros Hrz|reflexivity].
  (* nothing is left to offer *)
  replace (zlen data - n) with 0 in Hv by (rewrite <- Hrz; reflexivity). apply valid_seg_nil in Hv. subst ks. reflexivity.
Qed.

Lemma write_close s0 mux size : forall sched data (w : cworld) buf t,
  net_wf (w_s w) -> n_srv (w_s w) = set_x (XDl mux size buf t) s0 ->
  valid_seg_sched sched (zlen data) -> (size = None \/ size = Some (zlen buf + zlen data)) ->
  let '(w1, st1, r1) := write_sched net_step w (open_stream size (zlen buf) t) data sched in
  let '(w2, _, r2) := ws_close net_step w1 st1 in
  outcome w w2 (match r2 with Ok _ => r1 | _ => r2 end)
          (fun _ => n_srv (w_s w2) = set_x XNone (store_put mux (buf ++ data) s0)).
Proof.
  induction sched as [|k ks IH]; intros data w buf t Hwf Hx Hv Hsz.
  - apply zlen_nil_inv in Hv. subst data. rewrite app_nil_r. cbn [write_sched]. rewrite ws_close_open.
    pose proof (ref_dl_seg s0 mux size buf t true [] ltac:(cbn; lia)) as Href. rewrite app_nil_r, <- Hx in Href.
    replace (size_differs size buf) with false in Href
      by (unfold size_differs; destruct Hsz as [-> | ->]; [|change (zlen []) with 0]; lia).
    pose proof (answered w _ _ _ Hwf Href ltac:(destruct t; discriminate) ltac:(discriminate)) as H.
    change (zlen []) with 0 in H.
    destruct (rr w _) as [w1 [resp|e|c]]; [|exact H..].
    destruct H as (Hwf1 & (Hs & _) & Hf1). split; auto.
  - destruct (write_sched_open net_step w size (zlen buf) t data k ks Hv Hsz) as (chunk & rest & -> & Hc7 & Hv' & ->).
    set (last := match size with Some _ => is_nil rest | None => false end).
    pose proof (ref_dl_seg s0 mux size buf t last chunk Hc7) as Href. rewrite <- Hx in Href.
    pose proof (answered w _ _ _ Hwf Href ltac:(destruct t; discriminate) ltac:(discriminate)) as H.
    destruct (rr w _) as [w1 [resp|e|c]]; [|apply close_after_failure; [exact (proj1 H)|exact (proj2 H)]..].
    destruct H as (Hwf1 & (Hs1 & _ & Hresp) & Hf1).
    destruct (Z.land (nth 0 resp 0) 224 =? 32) eqn:Echk.
    2:{ apply close_after_failure; [auto|]. split; [reflexivity|]. intros Hf. rewrite Hf in Hresp. subst resp. destruct t; discriminate. }
    destruct last eqn:El.
    + (* the last segment: everything has been sent *)
      rewrite ws_close_done by reflexivity. split; [auto|]. split; [|auto]. rewrite Hs1.
      destruct size as [z|]; [|discriminate]. apply is_nil_true in El. subst rest. rewrite app_nil_r in *.
      destruct Hsz as [Hsz|[= ->]]; [discriminate|]. unfold size_differs. rewrite zlen_app, Z.eqb_refl. reflexivity.
    + specialize (IH rest w1 (buf ++ chunk) (negb t) Hwf1 Hs1 Hv'). rewrite zlen_app in *. rewrite app_assoc.
      destruct (write_sched net_step w1 _ _ ks) as [[w2 st2] r2]. destruct (ws_close net_step w2 st2) as [[w3 st3] r3].
      apply (outcome_trans w w1 w3 _ _ Hf1), IH. destruct Hsz as [-> | ->]; [auto|right; f_equal; lia].
Qed.

Lemma expedited_inv size force : expedited size force = true ->
  exists z, size = Some z /\ 1 <= z <= 4 /\ force = false.
Proof.
  unfold expedited. destruct size as [z|]; [|discriminate]. destruct force; intros H; [lia|].
  exists z. repeat split; lia.
Qed.

Lemma with_write_spec (w : cworld) idx sub data size force sched :
  net_wf (w_s w) -> mux_ok idx sub -> zlen data < 2 ^ 32 ->
  (size = None \/ size = Some (zlen data)) ->
  valid_sched (expedited size force) sched (zlen data) ->
  let '(w', r) := with_write net_step w idx sub size force data sched in
  outcome w w' r (fun _ => n_srv (w_s w') = set_x XNone (store_put (mux_bytes idx sub) data (n_srv (w_s w)))).
Proof.
  intros Hwf Hm Hlen Hsz Hv. unfold with_write. pose proof (zlen_nonneg data) as Hd0.
  destruct (expedited size force) eqn:Eexp; unfold valid_sched in Hv.
  - destruct (expedited_inv _ _ Eexp) as (z & -> & Hz & ->). subst sched.
    destruct Hsz as [Hsz|[= ->]]; [discriminate|].
    rewrite ws_init_exp by auto. cbn [write_sched]. rewrite firstn_all2 by (unfold zlen; lia).
    pose proof (ws_write_exp w data idx sub Hwf Hz) as H.
    destruct (ws_write net_step w (exp_stream (zlen data) idx sub) data) as [[w1 st1] [k|e|c]].
    2, 3: pose proof (close_after_failure w w1 st1) as Hc; destruct (ws_close net_step w1 st1) as [[w2 st2] r2];
          refine (Hc _ (fun w' _ => n_srv (w_s w') = _) (proj1 H) _); exact (proj2 H).
    destruct H as (Hwf1 & (Hd & Hs) & Hf1). rewrite ws_close_done by exact Hd. split; auto.
  - pose proof (ws_init_seg w idx sub size force Hwf Hm ltac:(destruct Hsz as [-> | ->]; cbn; lia) Eexp) as H.
    destruct (ws_init net_step w idx sub size force) as [[w0 st0] [[]|e|c]].
    2, 3: pose proof (ws_close_closed _ net_wf_closed w0 st0 (proj1 H)) as Hc;
          destruct (ws_close net_step w0 st0) as [[w1 st1] r1]; exact (conj Hc (proj2 H)).
    destruct H as (Hwf0 & (-> & Hs0) & Hf0).
    pose proof (write_close (n_srv (w_s w)) (mux_bytes idx sub) size sched data w0 [] false Hwf0 Hs0 Hv Hsz) as H.
    destruct (write_sched net_step w0 _ data sched) as [[w1 st1] r1]. destruct (ws_close net_step w1 st1) as [[w2 st2] r2].
    exact (outcome_trans _ _ _ _ _ Hf0 H).
Qed.

(* ReadableStream.__init__: what the client makes of an initiate-upload response *)
Definition init_decode (idx sub : Z) (resp : frame) : rstream * res unit :=
  if (length resp <? 4)%nat then (rs_new, Err E_STRUCT)
  else
    let c := nth 0 resp 0 in
    let ridx := nth 1 resp 0 + 256 * nth 2 resp 0 in
    let rsub := nth 3 resp 0 in
    let res_data := firstn 4 (skipn 4 resp) in
    if negb (Z.land c 224 =? 64) then (rs_new, Err E_SDOCOMM)
    else if negb ((ridx =? idx) && (rsub =? sub)) then (rs_new, Err E_SDOCOMM)
    else if negb (Z.land c 2 =? 0) then
      if negb (Z.land c 1 =? 0) then
        let size := 4 - Z.land (Z.shiftr c 2) 3 in
        let d := firstn (Z.to_nat size) res_data in
        ({| rs_done := false; rs_toggle := 0; rs_pos := zlen d; rs_size := Some size;
            rs_exp := Some d; rs_pending := [] |}, Ok tt)
      else
        ({| rs_done := false; rs_toggle := 0; rs_pos := zlen res_data; rs_size := None;
            rs_exp := Some res_data; rs_pending := [] |}, Ok tt)
    else if negb (Z.land c 1 =? 0) then
      if (length res_data =? 4)%nat then
        ({| rs_done := false; rs_toggle := 0; rs_pos := 0;
            rs_size := Some (le_decode res_data); rs_exp := None; rs_pending := [] |}, Ok tt)
      else (rs_new, Err E_STRUCT)
    else (rs_new, Ok tt).

Definition ul_init_req (idx sub : Z) : frame := 64 :: mux_bytes idx sub ++ [0; 0; 0; 0].

Lemma rs_init_unfold {S} (peer : S -> frame -> S * list frame) (w : @world S) idx sub : mux_ok idx sub ->
  rs_init peer w idx sub =
  let '(w1, r) := request_response peer w (ul_init_req idx sub) in
  match r with
  | Ok resp => let '(st, r') := init_decode idx sub resp in (w1, st, r')
  | Err k => (w1, rs_new, Err k)
  | Abort c => (w1, rs_new, Abort c)
  end.
Proof.
  intros Hm. unfold rs_init, REQUEST_UPLOAD, RESPONSE_UPLOAD, EXPEDITED, SIZE_SPECIFIED.
  rewrite pack_sdo_ok by (auto; lia).
  change ((64 :: mux_bytes idx sub) ++ [0; 0; 0; 0]) with (ul_init_req idx sub).
  destruct (request_response peer w (ul_init_req idx sub)) as [w1 [resp|k|c]]; try reflexivity.
  unfold init_decode.
  repeat match goal with |- context [if ?c then _ else _] => destruct c end; reflexivity.
Qed.

(* the server's answer to an initiate-upload request *)
Definition ul_init_resp (st : style) (idx sub : Z) (v : list Z) : frame :=
  if st_expedite st && (1 <=? zlen v) && (zlen v <=? 4) then
    (if st_exp_size st then 67 + 4 * (4 - zlen v) else 66) :: mux_bytes idx sub ++ pad_to 4 v
  else (if st_size_ind st then 65 else 64) :: mux_bytes idx sub ++
       (if st_size_ind st then le_encode 4 (zlen v) else [0; 0; 0; 0]).

Definition ul_init_srv (s : sst) (idx sub : Z) (v : list Z) : sst :=
  if st_expedite (s_style s) && (1 <=? zlen v) && (zlen v <=? 4) then set_x XNone s
  else set_x (XUl (mux_bytes idx sub) v false (st_segs (s_style s))) s.

Lemma ref_ul_init s idx sub : mux_ok idx sub ->
  ref_step s (ul_init_req idx sub) =
  match store_get idx sub s with
  | Some v => (ul_init_srv s idx sub v, Some (ul_init_resp (s_style s) idx sub v))
  | None => (set_x XNone s, Some (srv_abort (mux_bytes idx sub) 100794368))
  end.
Proof.
  intros Hm. unfold store_get. rewrite <- (mux_decode idx sub Hm).
  unfold ul_init_req, mux_bytes. cbn [app].
  unfold ref_step. cbn [length Nat.eqb negb nth]. change (64 / 32 =? 1) with false. change (64 / 32 =? 0) with false.
  change (64 / 32 =? 2) with true. cbn iota.
  unfold srv_init_upload. cbn [nth skipn firstn]. destruct (zassoc _ (s_store s)) as [v|]; [|reflexivity].
  change (negb ((64 mod 32 =? 0) && all_zero [0; 0; 0; 0])) with false. cbn [flag_if].
  unfold ul_init_srv, ul_init_resp, mux_bytes.
  destruct (st_expedite (s_style s) && (1 <=? zlen v) && (zlen v <=? 4)); reflexivity.
Qed.

(* what the client makes of the genuine answer *)
Definition init_state (st : style) (v : list Z) : rstream :=
  if st_expedite st && (1 <=? zlen v) && (zlen v <=? 4) then
    if st_exp_size st then
      {| rs_done := false; rs_toggle := 0; rs_pos := zlen v; rs_size := Some (zlen v); rs_exp := Some v; rs_pending := [] |}
    else
      {| rs_done := false; rs_toggle := 0; rs_pos := 4; rs_size := None; rs_exp := Some (pad_to 4 v); rs_pending := [] |}
  else
    {| rs_done := false; rs_toggle := 0; rs_pos := 0; rs_size := if st_size_ind st then Some (zlen v) else None;
       rs_exp := None; rs_pending := [] |}.

Lemma init_decode_genuine st idx sub v : mux_ok idx sub -> zlen v < 2 ^ 32 ->
  init_decode idx sub (ul_init_resp st idx sub v) = (init_state st v, Ok tt).
Proof.
  intros Hm Hv. unfold ul_init_resp, init_state.
  destruct (st_expedite st && (1 <=? zlen v) && (zlen v <=? 4)) eqn:Ee.
  - assert (Hl : 1 <= zlen v <= 4) by lia.
    destruct v as [|v0 [|v1 [|v2 [|v3 [|v4 v]]]]]; unfold zlen in Hl; cbn [length] in Hl; try lia;
      destruct (st_exp_size st); unfold init_decode, mux_bytes; cbn [app length Nat.ltb Nat.leb nth];
      rewrite (mux_idx idx sub Hm); reflexivity.
  - pose proof (zlen_nonneg v).
    destruct (st_size_ind st); unfold init_decode, mux_bytes; cbn [app length Nat.ltb Nat.leb nth le_encode];
      rewrite (mux_idx idx sub Hm); cbn [negb Z.land Z.eqb andb skipn firstn length Nat.eqb].
    + change [zlen v mod 256; zlen v / 256 mod 256; zlen v / 256 / 256 mod 256; zlen v / 256 / 256 / 256 mod 256]
        with (le_encode 4 (zlen v)). rewrite (le_decode_encode_small 4) by (change (2 ^ (8 * Z.of_nat 4)) with (2 ^ 32); lia). reflexivity.
    + reflexivity.
Qed.

Definition seg_resp (t : bool) (chunk : list Z) (last : bool) : frame :=
  (16 * b2z t + 2 * (7 - zlen chunk) + b2z last) :: pad_to 7 chunk.
Definition ul_seg_req (t : bool) : frame := Z.lor 96 (16 * b2z t) :: [0; 0; 0; 0; 0; 0; 0].
Definition seg_last (lazy : bool) (rest : list Z) (k : nat) : bool :=
  if lazy then is_nil rest else is_nil (skipn k rest).

(* a segment without data that is not the last: the schedule asked for it, and it takes nothing from the rest *)
Lemma seg_empty lazy (rest : list Z) segs :
  firstn (seg_k segs) rest = [] -> seg_last lazy rest (seg_k segs) = false -> segs <> [] /\ skipn (seg_k segs) rest = rest.
Proof.
  unfold seg_last. intros Hce Hl. destruct rest as [|x rest'].
  - destruct lazy; [discriminate|]. rewrite skipn_nil in Hl. discriminate.
  - destruct (seg_k segs) eqn:Ek; [|discriminate]. split; [|reflexivity]. intros ->. discriminate.
Qed.

Lemma ref_ul_seg s0 mux rest t segs :
  ref_step (set_x (XUl mux rest t segs) s0) (ul_seg_req t) =
  (let k := seg_k segs in
   let last := seg_last (st_lazy_end (s_style s0)) rest k in
   (if last then set_x XNone s0 else set_x (XUl mux (skipn k rest) (negb t) (tl segs)) s0,
    Some (seg_resp t (firstn k rest) last))).
Proof.
  unfold ul_seg_req, ref_step. cbn [length Nat.eqb negb nth].
  replace (Z.lor 96 (16 * b2z t) / 32 =? 1) with false by (destruct t; reflexivity).
  replace (Z.lor 96 (16 * b2z t) / 32 =? 0) with false by (destruct t; reflexivity).
  replace (Z.lor 96 (16 * b2z t) / 32 =? 2) with false by (destruct t; reflexivity).
  replace (Z.lor 96 (16 * b2z t) / 32 =? 3) with true by (destruct t; reflexivity).
  unfold srv_upload_segment. cbn [nth set_x s_x s_style].
  replace (negb ((Z.lor 96 (16 * b2z t) mod 16 =? 0) && all_zero (skipn 1 [Z.lor 96 (16 * b2z t); 0; 0; 0; 0; 0; 0; 0])))
    with false by (destruct t; reflexivity).
  cbn [flag_if]. replace (Z.testbit (Z.lor 96 (16 * b2z t)) 4) with t by (destruct t; reflexivity).
  rewrite Bool.eqb_reflx. cbn [negb]. fold (seg_k segs). unfold seg_last, seg_resp.
  destruct (if st_lazy_end (s_style s0) then is_nil rest else is_nil (skipn (seg_k segs) rest)); reflexivity.
Qed.

(* how the client reads the command byte of a genuine segment response *)
Lemma seg_resp_bits t (chunk : list Z) last : (length chunk <= 7)%nat ->
  let c := 16 * b2z t + 2 * (7 - zlen chunk) + b2z last in
  Z.land c 224 = 0 /\ Z.land c 16 = 16 * b2z t /\ 7 - Z.land (Z.shiftr c 1) 7 = zlen chunk /\
  (Z.land c 1 =? 0) = negb last /\ c <> 128.
Proof.
  intros H. assert (E : zlen chunk = 0 \/ zlen chunk = 1 \/ zlen chunk = 2 \/ zlen chunk = 3 \/ zlen chunk = 4 \/
                        zlen chunk = 5 \/ zlen chunk = 6 \/ zlen chunk = 7) by (unfold zlen; lia).
  destruct t, last; decompose [or] E; match goal with H : zlen chunk = _ |- _ => rewrite H end;
    vm_compute; repeat split; discriminate.
Qed.

Definition seg_checks (tg : Z) (resp : frame) : bool :=
  (Z.land (nth 0 resp 0) 224 =? 0) && (Z.land (nth 0 resp 0) 16 =? tg).

(* read() of a segmented stream with nothing pending makes one exchange.  Against any peer: what the client
   makes of a genuine segment response, and that everything else ends the read *)
Section ReadSegment.
  Context {S : Type} (peer : S -> frame -> S * list frame) (fuel : nat) (w w1 : @world S) (st : rstream) (t : bool).
  Context (Hp : rs_pending st = []) (Hd : rs_done st = false) (He : rs_exp st = None) (Ht : rs_toggle st = 16 * b2z t).

  Lemma rs_read_genuine (chunk : list Z) last : (length chunk <= 7)%nat ->
    request_response peer w (ul_seg_req t) = (w1, Ok (seg_resp t chunk last)) ->
    rs_read peer (Datatypes.S fuel) w st =
    let st1 := {| rs_done := last; rs_toggle := 16 * b2z (negb t); rs_pos := rs_pos st + zlen chunk;
                  rs_size := rs_size st; rs_exp := None; rs_pending := [] |} in
    if (zlen chunk =? 0) && negb last then rs_read peer fuel w1 st1 else (w1, st1, Ok chunk).
  Proof.
    intros Hck Hrr. destruct (seg_resp_bits t chunk last Hck) as (B1 & B2 & B3 & B4 & _).
    cbn [rs_read]. rewrite Hp, Hd, He, Ht. cbn [is_nil negb].
    unfold REQUEST_SEGMENT_UPLOAD, RESPONSE_SEGMENT_UPLOAD, TOGGLE_BIT, NO_MORE_DATA. fold (ul_seg_req t). rewrite Hrr.
    unfold seg_resp. cbn [nth skipn]. rewrite B1, B2, B3, B4. cbn [Z.eqb negb]. rewrite Z.eqb_refl. cbn [negb].
    rewrite !negb_involutive, toggle_flip.
    replace (firstn (Z.to_nat (zlen chunk)) (pad_to 7 chunk)) with chunk
      by (unfold zlen; rewrite Nat2Z.id; symmetry; apply firstn_pad_to).
    reflexivity.
  Qed.

  Lemma rs_read_rejected r :
    request_response peer w (ul_seg_req t) = (w1, r) ->
    match r with Ok resp => seg_checks (16 * b2z t) resp = false | _ => True end ->
    rs_read peer (Datatypes.S fuel) w st =
    (w1, st, match r with Ok _ => Err E_SDOCOMM | Err k => Err k | Abort c => Abort c end).
  Proof.
    intros Hrr Hbad. cbn [rs_read]. rewrite Hp, Hd, He, Ht. cbn [is_nil negb].
    unfold REQUEST_SEGMENT_UPLOAD, RESPONSE_SEGMENT_UPLOAD, TOGGLE_BIT, NO_MORE_DATA. fold (ul_seg_req t). rewrite Hrr.
    destruct r as [resp|k|c]; [|reflexivity..]. unfold seg_checks in Hbad.
    destruct (Z.land (nth 0 resp 0) 224 =? 0); cbn [negb andb] in *; [rewrite Hbad|]; reflexivity.
  Qed.
End ReadSegment.

Lemma land16_testbit c : Z.land c 16 = 16 * b2z (Z.testbit c 4).
Proof. change 16 with (2 ^ 4). rewrite land_pow2 by lia. now destruct (Z.testbit c 4). Qed.

(* a disturbed segment response either is the genuine one or fails the client's checks *)
Lemma seg_fault_resp t f (chunk : list Z) last resp : (length chunk <= 7)%nat ->
  seg_fault_ok t f -> hd_error (apply_fault f [seg_resp t chunk last]) = Some resp ->
  resp = seg_resp t chunk last \/ seg_checks (16 * b2z t) resp = false.
Proof.
  intros Hl Hf Hh. destruct (seg_resp_bits t chunk last Hl) as (B1 & B2 & _).
  destruct f as [| |frs|m|m| |fr|]; cbn [apply_fault seg_fault_ok] in *; try discriminate.
  - destruct frs as [|fr frs]; [discriminate|]. injection Hh as <-. destruct Hf as [_ H128].
    right. unfold seg_checks. rewrite H128. reflexivity.
  - cbn [map hd_error seg_resp] in Hh. right. replace resp with (Z.lxor (16 * b2z t + 2 * (7 - zlen chunk) + b2z last) m :: pad_to 7 chunk) by congruence.
    unfold seg_checks. cbn [nth].
    rewrite !land_lxor_distr, B1, B2, Z.lxor_0_l.
    destruct (xor0_hits m (proj1 Hf) (proj2 Hf)) as [H | ->]; [replace (Z.land m 224 =? 0) with false by lia; reflexivity|].
    change (Z.land 16 16) with 16. rewrite toggle_flip. destruct t; reflexivity.
  - destruct Hf.
  - cbn [app hd_error] in Hh. injection Hh as <-. auto.
  - cbn [hd_error] in Hh. injection Hh as <-. right. unfold seg_checks. destruct Hf as [_ [H|H]].
    + replace (Z.land (nth 0 fr 0) 224 =? 0) with false by lia. reflexivity.
    + rewrite land16_testbit. destruct (Z.testbit (nth 0 fr 0) 4), t; try congruence; apply andb_false_r.
Qed.

Definition slot_ok (t : bool) (o : option (nat * fault)) : Prop :=
  match o with Some (j, f) => seg_fault_ok (xorb t (Nat.odd j)) f | None => True end.

Lemma slot_ok_after t o : slot_ok t o -> slot_ok (negb t) (slot_after o).
Proof.
  destruct o as [[[|j] f]|]; cbn; auto.
  rewrite Nat.odd_succ, <- Nat.negb_odd. destruct t, (Nat.odd j); cbn; auto.
Qed.

(* R: the bytes the stream has still to hand out; s0: the server's state before, but for the transfer.
   The stream holds unread expedited data, or is done (but for bytes a readinto has left over), or the
   server has the rest. *)
Definition rem_inv (s0 : sst) (rf : nat) (w : cworld) (st : rstream) (R : list Z) : Prop :=
  (n_srv (w_s w) = set_x XNone s0 /\
   ((rs_pending st = [] /\ rs_done st = false /\ rs_exp st = Some R) \/ (rs_done st = true /\ R = rs_pending st))) \/
  (exists mux rest t segs,
     n_srv (w_s w) = set_x (XUl mux rest t segs) s0 /\ rs_done st = false /\ rs_exp st = None /\
     rs_toggle st = 16 * b2z t /\ R = rs_pending st ++ rest /\ (length segs < rf)%nat /\ slot_ok t (n_fault (w_s w))).

(* after a read that returned d *)
Definition read_post (s0 : sst) (rf : nat) (R : list Z) (w' : cworld) (st' : rstream) (d : list Z) : Prop :=
  exists R', R = d ++ R' /\ rs_pending st' = [] /\ (rs_done st' = true \/ rs_exp st' = None) /\ rem_inv s0 rf w' st' R' /\
             (d = [] -> R' = [] /\ n_srv (w_s w') = set_x XNone s0).

Lemma rs_read_seg s0 rf : forall fuel (w : cworld) st mux rest t segs,
  net_wf (w_s w) -> n_srv (w_s w) = set_x (XUl mux rest t segs) s0 ->
  rs_done st = false -> rs_exp st = None -> rs_pending st = [] -> rs_toggle st = 16 * b2z t ->
  slot_ok t (n_fault (w_s w)) -> (length segs < fuel)%nat -> (length segs < rf)%nat ->
  let '(w', st', r) := rs_read net_step fuel w st in outcome w w' r (read_post s0 rf rest w' st').
Proof.
  induction fuel as [|fuel IH]; intros w st mux rest t segs Hwf Hx Hd He Hp Ht Hslot Hfuel Hrf; [lia|].
  pose proof (ref_ul_seg s0 mux rest t segs) as Href. rewrite <- Hx in Href. cbv zeta in Href.
  set (k := seg_k segs) in *. set (last := seg_last (st_lazy_end (s_style s0)) rest k) in *.
  set (chunk := firstn k rest) in *.
  assert (Hck : (length chunk <= 7)%nat) by (unfold chunk; rewrite firstn_length; pose proof (seg_k_le segs); fold k in H; lia).
  assert (Htl : (length (tl segs) <= length segs)%nat) by (destruct segs; cbn; lia).
  destruct (seg_resp_bits t chunk last Hck) as (_ & _ & _ & _ & B5).
  pose proof (answered w (ul_seg_req t) _ _ Hwf Href B5 ltac:(discriminate)) as H.
  destruct (rr w (ul_seg_req t)) as [w1 r] eqn:Erq.
  destruct r as [resp|e|c]; [|rewrite (rs_read_rejected _ fuel _ _ _ _ Hp Hd He Ht _ Erq I); exact H..].
  destruct H as (Hwf1 & (Hs1 & Hf1 & Hresp) & Hcl1).
  assert (Hcases : resp = seg_resp t chunk last \/ (seg_checks (16 * b2z t) resp = false /\ n_fault (w_s w) <> None)).
  { destruct (n_fault (w_s w)) as [[[|j] f]|]; auto.
    destruct (seg_fault_resp t f chunk last resp Hck) as [H|H]; [cbn in Hslot; destruct t; exact Hslot|exact Hresp|auto|].
    right. split; [exact H|discriminate]. }
  destruct Hcases as [->|[Hbad Hdist]];
    [|rewrite (rs_read_rejected _ fuel _ _ _ _ Hp Hd He Ht _ Erq Hbad); exact (conj Hwf1 (conj eq_refl Hdist))].
  rewrite (rs_read_genuine _ fuel _ _ _ _ Hp Hd He Ht _ _ Hck Erq). cbv zeta.
  assert (Hsl1 : slot_ok (negb t) (n_fault (w_s w1))) by (rewrite Hf1; apply slot_ok_after; auto).
  assert (Hlast : last = true -> skipn k rest = []).
  { unfold last, seg_last. destruct (st_lazy_end _); intros El; apply is_nil_true in El; [rewrite El; apply skipn_nil|auto]. }
  destruct ((zlen chunk =? 0) && negb last) eqn:Eempty.
  - (* an empty segment that is not the last one: read on *)
    assert (Hce : chunk = []) by (apply zlen_nil_inv; lia).
    assert (Hl : last = false) by (destruct last; [cbn in Eempty; lia|reflexivity]).
    rewrite Hl in Hs1.
    destruct (seg_empty _ rest segs Hce Hl : segs <> [] /\ skipn k rest = rest) as [Hsegs Hskip]. rewrite Hskip in Hs1.
    assert (Hlt : (length (tl segs) < length segs)%nat) by (destruct segs; [congruence|cbn; lia]).
    rewrite Hl. set (st1 := Build_rstream _ _ _ _ _ _).
    pose proof (IH w1 st1 mux rest (negb t) (tl segs) Hwf1 Hs1 eq_refl eq_refl eq_refl eq_refl Hsl1 ltac:(lia) ltac:(lia)) as H.
    destruct (rs_read net_step fuel w1 st1) as [[w2 st2] r2]. exact (outcome_trans _ _ _ _ _ Hcl1 H).
  - (* a segment with data, or the last one *)
    split; [auto|]. split; [|auto]. exists (skipn k rest).
    split; [symmetry; apply firstn_skipn|]. split; [reflexivity|]. split; [right; reflexivity|]. rewrite Hs1. split.
    + destruct last.
      * left. rewrite Hlast by reflexivity. cbn. auto.
      * right. exists mux, (skipn k rest), (negb t), (tl segs). cbn. repeat split; auto. lia.
    + intros Hc0. destruct last; [auto|]. rewrite Hc0 in Eempty. discriminate.
Qed.

Lemma ul_init_resp_shape st idx sub v :
  exists c0 d, ul_init_resp st idx sub v = c0 :: mux_bytes idx sub ++ d /\ length d = 4%nat /\
               Z.land c0 224 = 64.
Proof.
  unfold ul_init_resp.
  destruct (st_expedite st && (1 <=? zlen v) && (zlen v <=? 4)) eqn:Ee.
  - assert (Hl : 1 <= zlen v <= 4) by lia.
    eexists _, (pad_to 4 v). split; [reflexivity|]. split; [apply pad_to_length; unfold zlen in Hl; lia|].
    destruct (st_exp_size st); [|reflexivity].
    assert (E : zlen v = 1 \/ zlen v = 2 \/ zlen v = 3 \/ zlen v = 4) by lia.
    decompose [or] E; match goal with H : zlen v = _ |- _ => rewrite H end; reflexivity.
  - eexists _, _. split; [reflexivity|]. destruct (st_size_ind st); (split; reflexivity).
Qed.

Lemma init_decode_bad_cs idx sub c tl : (3 <= length tl)%nat -> Z.land c 224 <> 64 ->
  init_decode idx sub (c :: tl) = (rs_new, Err E_SDOCOMM).
Proof.
  intros Hl Hc. unfold init_decode. cbn [length nth].
  replace (S (length tl) <? 4)%nat with false by (symmetry; apply Nat.ltb_ge; lia).
  replace (Z.land c 224 =? 64) with false by lia. reflexivity.
Qed.

Lemma init_decode_bad_mux idx sub c m1 m2 m3 d : Z.land c 224 = 64 ->
  (m1 + 256 * m2 =? idx) && (m3 =? sub) = false ->
  init_decode idx sub (c :: m1 :: m2 :: m3 :: d) = (rs_new, Err E_SDOCOMM).
Proof.
  intros Hc Hm. unfold init_decode. cbn [length nth Nat.ltb Nat.leb].
  rewrite Hc, Hm. reflexivity.
Qed.

(* the client looks at bits 7..5 and 3..0 of the command byte of this response, not at bit 4 *)
Lemma init_decode_bit4 idx sub c tl : init_decode idx sub (Z.lxor c 16 :: tl) = init_decode idx sub (c :: tl).
Proof.
  unfold init_decode. cbn [length nth skipn]. rewrite Z.shiftr_lxor, !land_lxor_distr, !Z.lxor_0_r. reflexivity.
Qed.

Lemma lxor_neq a x : x <> 0 -> Z.lxor a x <> a.
Proof.
  intros Hx E. apply Hx. rewrite <- (Z.lxor_0_l x), <- (Z.lxor_nilpotent a), Z.lxor_assoc, E. reflexivity.
Qed.

Lemma init_decode_fault st idx sub v f resp : mux_ok idx sub -> zlen v < 2 ^ 32 ->
  init_fault_ok idx sub f -> hd_error (apply_fault f [ul_init_resp st idx sub v]) = Some resp ->
  init_decode idx sub resp = (init_state st v, Ok tt) \/ init_decode idx sub resp = (rs_new, Err E_SDOCOMM).
Proof.
  intros Hm Hv Hf Hh.
  pose proof (init_decode_genuine st idx sub v Hm Hv) as Hgen.
  destruct (ul_init_resp_shape st idx sub v) as (c0 & d & Hshape & Hd & Hcs).
  rewrite Hshape in *. unfold mux_bytes in Hgen, Hh. cbn [app] in Hgen, Hh.
  destruct f as [| |frs|m|m| |fr|]; cbn [apply_fault init_fault_ok] in *; try discriminate.
  - destruct frs as [|fr frs]; [discriminate|]. injection Hh as <-. destruct Hf as [H8 H128].
    right. destruct fr as [|c tl]; [discriminate|]. cbn in H128. subst c.
    apply init_decode_bad_cs; [unfold frame8 in H8; cbn in H8; lia|cbn; lia].
  - cbn [map hd_error] in Hh. injection Hh as <-.
    destruct (xor0_hits m (proj1 Hf) (proj2 Hf)) as [H | ->].
    + right. apply init_decode_bad_cs; [cbn; rewrite Hd; lia|]. rewrite land_lxor_distr, Hcs. apply lxor_neq, H.
    + left. rewrite init_decode_bit4. exact Hgen.
  - cbn [map hd_error] in Hh. injection Hh as <-. destruct Hf as (Hl3 & Hne & Hr).
    pose proof (mux_differs idx sub m Hm Hr Hne) as Hdiff.
    destruct m as [|m1 [|m2 [|m3 [|m4 m]]]]; try discriminate. right. apply init_decode_bad_mux; auto.
  - cbn [app hd_error] in Hh. injection Hh as <-. left. exact Hgen.
  - cbn [hd_error] in Hh. injection Hh as <-. destruct Hf as (H8 & Hr & Hor).
    right. destruct fr as [|c [|m1 [|m2 [|m3 tl]]]]; try (unfold frame8 in H8; cbn in H8; lia).
    destruct (Z.eq_dec (Z.land c 224) 64) as [Hc64|Hc64]; [|apply init_decode_bad_cs; [cbn; lia|auto]].
    apply init_decode_bad_mux; [auto|]. destruct Hor as [Hor|Hor]; [cbn in Hor; congruence|].
    exact (mux_differs idx sub _ Hm (proj1 (Forall_firstn_skipn _ 3 _ (proj2 (Forall_firstn_skipn _ 1 _ Hr)))) Hor).
Qed.

Lemma ul_init_resp_hd st idx sub v : nth 0 (ul_init_resp st idx sub v) 0 <> 128 /\ ul_init_resp st idx sub v <> [].
Proof.
  destruct (ul_init_resp_shape st idx sub v) as (c0 & d & -> & _ & Hc0).
  split; [|discriminate]. cbn [nth]. intros ->. discriminate.
Qed.

Lemma rs_init_spec rf (w : cworld) idx sub v :
  net_wf (w_s w) -> mux_ok idx sub -> store_get idx sub (n_srv (w_s w)) = Some v -> zlen v < 2 ^ 32 ->
  ul_fault_ok idx sub (n_fault (w_s w)) -> (length (st_segs (s_style (n_srv (w_s w)))) < rf)%nat ->
  let '(w', st', r) := rs_init net_step w idx sub in
  outcome w w' r (fun _ =>
    st' = init_state (s_style (n_srv (w_s w))) v /\ n_srv (w_s w') = ul_init_srv (n_srv (w_s w)) idx sub v /\
    rem_inv (n_srv (w_s w)) rf w' st' (wire_value (s_style (n_srv (w_s w))) v)).
Proof.
  intros Hwf Hm Hg Hv Hfo Hrf. rewrite rs_init_unfold by auto.
  pose proof (ref_ul_init (n_srv (w_s w)) idx sub Hm) as Href. rewrite Hg in Href.
  set (s := n_srv (w_s w)) in *. set (sty := s_style s) in *.
  destruct (ul_init_resp_hd sty idx sub v) as [Hn128 Hne].
  pose proof (answered w (ul_init_req idx sub) _ _ Hwf Href Hn128 Hne) as H.
  destruct (rr w (ul_init_req idx sub)) as [w1 [resp|e|c]]; [|exact H..].
  destruct H as (Hwf1 & (Hs1 & Hf1 & Hresp) & Hcl1).
  pose proof (init_decode_genuine sty idx sub v Hm Hv) as Hgen.
  assert (Hcases : init_decode idx sub resp = (init_state sty v, Ok tt) \/
                   (init_decode idx sub resp = (rs_new, Err E_SDOCOMM) /\ n_fault (w_s w) <> None)).
  { destruct (n_fault (w_s w)) as [[[|j] f]|]; try (subst resp; auto).
    destruct (init_decode_fault _ idx sub v f resp Hm Hv Hfo Hresp); [auto|right; split; [auto|discriminate]]. }
  destruct Hcases as [-> |[-> Hdist]]; [|split; [auto|split; [reflexivity|exact Hdist]]].
  split; [auto|]. split; [|auto]. split; [reflexivity|]. split; [auto|].
  unfold rem_inv. rewrite Hs1. unfold init_state, ul_init_srv, wire_value. fold sty.
  destruct (st_expedite sty && (1 <=? zlen v) && (zlen v <=? 4)); cbn [andb].
  - left. split; [reflexivity|]. left. destruct (st_exp_size sty); cbn; auto.
  - right. exists (mux_bytes idx sub), v, false, (st_segs sty). cbn. repeat split; auto.
    rewrite Hf1. destruct (n_fault (w_s w)) as [[[|j] f]|]; cbn; auto. cbn in Hfo. destruct (Nat.odd j); exact Hfo.
Qed.

Lemma rs_read_done {S} (peer : S -> frame -> S * list frame) fuel (w : @world S) st :
  rs_pending st = [] -> rs_done st = true -> rs_read peer fuel w st = (w, st, Ok []).
Proof. intros Hp Hd. destruct fuel; cbn [rs_read]; rewrite Hp, Hd; reflexivity. Qed.

Lemma read_step s0 rf (w : cworld) st R : net_wf (w_s w) -> rem_inv s0 rf w st R ->
  let '(w', st', r) := rs_read net_step rf w st in outcome w w' r (read_post s0 rf R w' st').
Proof.
  intros Hwf Hinv. destruct (rs_pending st) as [|p0 p] eqn:Ep.
  - destruct Hinv as [[Hs [(_ & Hd & He)|(Hd & ->)]]|(mux & rest & t & segs & Hs & Hd & He & Ht & -> & Hrf & Hsl)].
    + replace (rs_read net_step rf w st) with (w, {| rs_done := true; rs_toggle := rs_toggle st; rs_pos := rs_pos st;
          rs_size := rs_size st; rs_exp := rs_exp st; rs_pending := rs_pending st |}, Ok R)
        by (destruct rf; cbn [rs_read]; rewrite Ep, Hd, He; reflexivity).
      split; [auto|]. split; [|auto]. exists []. rewrite app_nil_r.
      split; [reflexivity|]. split; [exact Ep|]. split; [left; reflexivity|]. split; [left; cbn; auto|auto].
    + rewrite rs_read_done, Ep by auto. split; [auto|]. split; [|auto]. exists [].
      split; [reflexivity|]. split; [exact Ep|]. split; [auto|]. split; [left; auto|auto].
    + rewrite Ep. exact (rs_read_seg s0 rf rf w st mux rest t segs Hwf Hs Hd He Ep Ht Hsl Hrf Hrf).
  - (* bytes left over from a readinto with a small buffer come first *)
    replace (rs_read net_step rf w st) with (w, set_pending [] st, Ok (p0 :: p))
      by (destruct rf; cbn [rs_read]; rewrite Ep; reflexivity).
    split; [auto|]. split; [|auto].
    destruct Hinv as [[Hs [(Hp & _)|(Hd & ->)]]|(mux & rest & t & segs & Hs & Hd & He & Ht & -> & Hrf & Hsl)]; [congruence| |].
    + exists []. rewrite app_nil_r. split; [auto|]. split; [reflexivity|]. split; [auto|]. split; [left; cbn; auto|discriminate].
    + exists rest. rewrite Ep. split; [reflexivity|]. split; [reflexivity|]. split; [auto|]. split; [right|discriminate].
      exists mux, rest, t, segs. cbn. auto 10.
Qed.

Lemma readall_spec s0 rf : forall fuel (w : cworld) st R acc,
  net_wf (w_s w) -> rem_inv s0 rf w st R -> (length R < fuel)%nat ->
  let '(w', st', r) := readall net_step rf fuel w st acc in
  outcome w w' r (fun out => out = acc ++ R /\ n_srv (w_s w') = set_x XNone s0).
Proof.
  induction fuel as [|fuel IH]; intros w st R acc Hwf Hinv Hfuel; [lia|]. cbn [readall].
  pose proof (read_step s0 rf w st R Hwf Hinv) as H.
  destruct (rs_read net_step rf w st) as [[w1 st1] [d|e|c]]; [|exact H..].
  destruct H as (Hwf1 & (R' & -> & Hp1 & _ & Hinv1 & Hnil) & Hcl1). destruct d as [|x d].
  - destruct (Hnil eq_refl) as [-> Hs]. cbn [app]. rewrite app_nil_r. split; auto.
  - rewrite app_length in Hfuel. cbn [length] in Hfuel.
    specialize (IH w1 st1 R' (acc ++ x :: d) Hwf1 Hinv1 ltac:(lia)).
    destruct (readall net_step rf fuel w1 st1 _) as [[w2 st2] r2]. rewrite <- app_assoc in IH.
    exact (outcome_trans _ _ _ _ _ Hcl1 IH).
Qed.

Lemma read_whole_spec fuel (w : cworld) idx sub v :
  net_wf (w_s w) -> mux_ok idx sub -> store_get idx sub (n_srv (w_s w)) = Some v -> zlen v < 2 ^ 32 ->
  ul_fault_ok idx sub (n_fault (w_s w)) ->
  (length (st_segs (s_style (n_srv (w_s w)))) < fuel)%nat -> (length v + 2 <= fuel)%nat ->
  let '(w', size, r) := read_whole net_step fuel w idx sub in
  outcome w w' r (fun out =>
     out = wire_value (s_style (n_srv (w_s w))) v /\
     size = (if size_indicated (s_style (n_srv (w_s w))) v then Some (zlen v) else None) /\
     n_srv (w_s w') = set_x XNone (n_srv (w_s w))).
Proof.
  intros Hwf Hm Hg Hv Hfo Hf1 Hf2. unfold read_whole.
  pose proof (rs_init_spec fuel w idx sub v Hwf Hm Hg Hv Hfo Hf1) as H.
  destruct (rs_init net_step w idx sub) as [[w0 st0] [[]|e|c]]; [|exact H..].
  destruct H as (Hwf0 & (-> & Hs0 & Hinv) & Hcl0).
  unfold init_state, ul_init_srv, wire_value, size_indicated in *.
  set (sty := s_style (n_srv (w_s w))) in *.
  destruct (st_expedite sty && (1 <=? zlen v) && (zlen v <=? 4)) eqn:Ee; cbn [andb] in *.
  - destruct (st_exp_size sty); cbn [rs_exp rs_size negb]; (split; [auto|]); auto.
  - cbn [rs_exp rs_size].
    pose proof (readall_spec _ fuel fuel w0 _ v [] Hwf0 Hinv ltac:(lia)) as H.
    destruct (readall net_step fuel fuel w0 _ []) as [[w1 st1] r1].
    apply (outcome_trans w w0 w1 _ _ Hcl0). revert H. apply outcome_weaken. intros out [-> Hs1]. auto.
Qed.

Lemma sdo_upload_spec fuel (w : cworld) idx sub odt v :
  net_wf (w_s w) -> mux_ok idx sub -> store_get idx sub (n_srv (w_s w)) = Some v -> zlen v < 2 ^ 32 ->
  ul_fault_ok idx sub (n_fault (w_s w)) ->
  (length (st_segs (s_style (n_srv (w_s w)))) < fuel)%nat -> (length v + 2 <= fuel)%nat ->
  let '(w', r) := sdo_upload net_step fuel w idx sub odt in
  outcome w w' r (fun out => out = expected_upload (s_style (n_srv (w_s w))) odt v /\
                             n_srv (w_s w') = set_x XNone (n_srv (w_s w))).
Proof.
  intros Hwf Hm Hg Hv Hfo Hf1 Hf2. unfold sdo_upload.
  pose proof (read_whole_spec fuel w idx sub v Hwf Hm Hg Hv Hfo Hf1 Hf2) as H.
  destruct (read_whole net_step fuel w idx sub) as [[w1 size] [data|e|c]]; [|exact H..].
  destruct H as (Hwf1 & ((-> & -> & Hs1) & Hcl1)). split; auto.
Qed.

(* the dictionary truncation: declared leading bytes of a fixed-size numeric entry, everything otherwise *)
Lemma expected_upload_plain st odt v :
  (odt = None \/ exists t, odt = Some t /\ od_var_size t = None) -> expected_upload st odt v = wire_value st v.
Proof. unfold expected_upload, truncate. intros [->|(t & -> & ->)]; reflexivity. Qed.

Lemma firstn_pad_to_le n k (l : list Z) : (k <= length l)%nat -> firstn k (pad_to n l) = firstn k l.
Proof. intros H. unfold pad_to. rewrite firstn_app. replace (k - length l)%nat with 0%nat by lia. cbn. apply app_nil_r. Qed.

Lemma expected_upload_numeric st t k v : od_var_size t = Some k -> 0 <= k <= zlen v ->
  expected_upload st (Some t) v = firstn (Z.to_nat k) v.
Proof.
  intros Hk Hkv. unfold expected_upload, truncate. rewrite Hk. unfold wire_value, size_indicated.
  assert (Hall : k = zlen v -> firstn (Z.to_nat k) v = v) by (intros ->; apply firstn_all2; unfold zlen; lia).
  destruct (st_expedite st && (1 <=? zlen v) && (zlen v <=? 4)) eqn:Ee; cbn [andb].
  - destruct (st_exp_size st); cbn [negb].
    + destruct (k <? zlen v) eqn:E; [reflexivity|]. symmetry. apply Hall. lia.
    + apply firstn_pad_to_le. unfold zlen in Hkv. lia.
  - destruct (st_size_ind st).
    + destruct (k <? zlen v) eqn:E; [reflexivity|]. symmetry. apply Hall. lia.
    + reflexivity.
Qed.

Lemma rem_inv_srv s0 rf w st R : rem_inv s0 rf w st R -> exists x, n_srv (w_s w) = set_x x s0.
Proof. intros [[Hs _]|(mux & rest & t & segs & Hs & _)]; eauto. Qed.

Lemma rem_inv_set_pending s0 rf w st p R :
  rs_pending st = [] -> rs_done st = true \/ rs_exp st = None -> rem_inv s0 rf w st R ->
  rem_inv s0 rf w (set_pending p st) (p ++ R).
Proof.
  intros Hp Hne [[Hs [(_ & Hd & He)|(Hd & ->)]]|(mux & r & t & segs & Hs & Hd & He & Ht & -> & Hrf)].
  - destruct Hne; congruence.
  - left. split; [auto|]. right. cbn. rewrite Hp, app_nil_r. auto.
  - right. exists mux, r, t, segs. cbn [rs_pending rs_done rs_exp rs_toggle set_pending]. rewrite Hp. auto 10.
Qed.

Lemma firstn_count_ne cap (l : list Z) : (cap <? 0) = false -> cap <> 0 -> l <> [] ->
  firstn (Z.to_nat (Z.min cap (zlen l))) l <> [].
Proof.
  intros Hc Hc0 Hl. destruct l as [|x l]; [congruence|]. unfold zlen. cbn [length].
  destruct (Z.to_nat (Z.min cap (Z.of_nat (S (length l))))) eqn:En; [lia|discriminate].
Qed.

Lemma readinto_step s0 rf cap (w : cworld) st R : net_wf (w_s w) -> rem_inv s0 rf w st R ->
  let '(w', st', r) := rs_readinto net_step rf cap w st in
  outcome w w' r (fun d => exists R', R = d ++ R' /\ rem_inv s0 rf w' st' R' /\ (cap <> 0 -> R <> [] -> d <> [])).
Proof.
  intros Hwf Hinv. unfold rs_readinto.
  pose proof (read_step s0 rf w st R Hwf Hinv) as H.
  destruct (cap <? 0) eqn:Ecap.
  { destruct (rs_read net_step rf w st) as [[w1 st1] [d|e|c]]; [|exact H..].
    destruct H as (Hwf1 & (R' & -> & _ & _ & Hinv1 & Hnil) & Hcl1). split; [auto|]. split; [|auto].
    exists R'. split; [auto|]. split; [auto|]. intros _ HR ->. destruct (Hnil eq_refl) as [-> _]. auto. }
  destruct (rs_pending st) as [|p0 p] eqn:Ep.
  - destruct (rs_read net_step rf w st) as [[w1 st1] [d|e|c]]; [|exact H..].
    destruct H as (Hwf1 & (R' & -> & Hp1 & Hnx & Hinv1 & Hnil) & Hcl1). split; [auto|]. split; [|auto].
    set (count := Z.to_nat (Z.min cap (zlen d))). exists (skipn count d ++ R').
    split; [rewrite app_assoc, firstn_skipn; reflexivity|]. split; [apply rem_inv_set_pending; auto|].
    intros Hc HR. apply firstn_count_ne; auto. intros ->. destruct (Hnil eq_refl) as [-> _]. auto.
  - clear H. set (count := Z.to_nat (Z.min cap (zlen (p0 :: p)))). split; [auto|]. split; [|auto].
    assert (Hcnt : cap <> 0 -> firstn count (p0 :: p) <> []) by (intros; apply firstn_count_ne; auto; discriminate).
    destruct Hinv as [[Hs [(Hp & _)|(Hd & ->)]]|(mux & rest & t & segs & Hs & Hd & He & Ht & -> & Hrf)]; [congruence| |].
    + exists (skipn count (p0 :: p)). rewrite Ep, firstn_skipn. split; [reflexivity|]. split; [|auto].
      left. split; [auto|]. right. cbn. auto.
    + exists (skipn count (p0 :: p) ++ rest). rewrite Ep, app_assoc, firstn_skipn. split; [reflexivity|]. split; [|auto].
      right. exists mux, rest, t, segs. cbn. auto 10.
Qed.

Lemma read_caps_spec s0 rf : forall caps (w : cworld) st R acc,
  net_wf (w_s w) -> rem_inv s0 rf w st R ->
  let '(w', st', r) := read_caps net_step rf caps w st acc in
  outcome w w' r (fun res => exists out R', res = acc ++ out /\ R = out ++ R' /\
    (exists x, n_srv (w_s w') = set_x x s0) /\ (Nat.min (length R) (active_caps caps) <= length out)%nat).
Proof.
  induction caps as [|cap caps IH]; intros w st R acc Hwf Hinv; cbn [read_caps].
  - split; [auto|]. split; [|auto]. exists [], R. rewrite app_nil_r. unfold active_caps. cbn [filter length].
    split; [reflexivity|]. split; [reflexivity|]. split; [apply (rem_inv_srv s0 rf w st R Hinv)|lia].
  - pose proof (readinto_step s0 rf cap w st R Hwf Hinv) as H.
    destruct (rs_readinto net_step rf cap w st) as [[w1 st1] [d|e|c]]; [|exact H..].
    destruct H as (Hwf1 & (R1 & -> & Hinv1 & Hne) & Hcl1).
    specialize (IH w1 st1 R1 (acc ++ d) Hwf1 Hinv1).
    destruct (read_caps net_step rf caps w1 st1 (acc ++ d)) as [[w2 st2] r2].
    apply (outcome_trans w w1 w2 _ _ Hcl1). revert IH. apply outcome_weaken. intros res (out & R2 & -> & -> & Hs2 & Hlen).
    exists (d ++ out), R2. rewrite !app_assoc. split; [reflexivity|]. split; [reflexivity|]. split; [auto|].
    unfold active_caps in *. cbn [filter].
    destruct (cap =? 0) eqn:Ec; cbn [negb length]; [rewrite !app_length in *; lia|].
    destruct d as [|x d]; [|rewrite !app_length in *; cbn [length]; lia]. cbn [app] in *.
    destruct (out ++ R2) eqn:E; [cbn; lia|]. exfalso. apply Hne; [lia|discriminate|reflexivity].
Qed.

Lemma open_read_spec fuel caps (w : cworld) idx sub v :
  net_wf (w_s w) -> mux_ok idx sub -> store_get idx sub (n_srv (w_s w)) = Some v -> zlen v < 2 ^ 32 ->
  ul_fault_ok idx sub (n_fault (w_s w)) -> (length (st_segs (s_style (n_srv (w_s w)))) < fuel)%nat ->
  let '(w', r) := open_read net_step fuel caps w idx sub in
  outcome w w' r (fun out => exists rest,
    wire_value (s_style (n_srv (w_s w))) v = out ++ rest /\
    (Nat.min (length (wire_value (s_style (n_srv (w_s w))) v)) (active_caps caps) <= length out)%nat /\
    exists x, n_srv (w_s w') = set_x x (n_srv (w_s w))).
Proof.
  intros Hwf Hm Hg Hv Hfo Hfuel. unfold open_read.
  pose proof (rs_init_spec fuel w idx sub v Hwf Hm Hg Hv Hfo Hfuel) as H.
  destruct (rs_init net_step w idx sub) as [[w0 st0] [[]|e|c]]; [|exact H..].
  destruct H as (Hwf0 & (_ & _ & Hinv) & Hcl0).
  pose proof (read_caps_spec _ fuel caps w0 st0 _ [] Hwf0 Hinv) as H.
  destruct (read_caps net_step fuel caps w0 st0 []) as [[w1 st1] r1].
  apply (outcome_trans w w0 w1 _ _ Hcl0). revert H. apply outcome_weaken. intros res (out & R' & -> & HR & Hs & Hlen).
  exists R'. auto.
Qed.

(* a lost response is followed by the time-out abort *)
Lemma lost_seen_closed f : lost_like f -> rr_closed (lost_seen f).
Proof.
  intros Hl w req Hw. rewrite rr_spec.
  destruct (net_step (w_s w) req) as [n1 [|r q]] eqn:En.
  - destruct (net_step n1 (abort_frame TIMEOUT_ABORT)) as [n2 rs2]. right. apply in_or_app. right. left. reflexivity.
  - destruct Hw as [[j Hj]|Hin]; [|right; apply in_or_app; right; right; exact Hin].
    unfold net_step in En. rewrite Hj in En. destruct (ref_step (n_srv (w_s w)) req) as [s' o].
    destruct j as [|j]; [|injection En as <- _; left; exists j; reflexivity].
    exfalso. destruct f as [| |[|]| | | | |]; cbn in Hl; try contradiction; discriminate.
Qed.

Lemma replay_err_sticky : forall ops (w : cworld) st data (r : res unit),
  r <> Ok tt -> snd (replay_ops net_step w st data ops r) <> Ok tt.
Proof.
  induction ops as [|k ks IH]; intros w st data r Hr; cbn [replay_ops]; [exact Hr|].
  destruct (k <? 0).
  - destruct (ws_close net_step w st) as [[w1 st1] [[]| |]]; apply IH; [exact Hr|discriminate..].
  - destruct (ws_write net_step w st (firstn (Z.to_nat k) data)) as [[w1 st1] []]; apply IH; [exact Hr|discriminate..].
Qed.

(* when nothing fails the replayed calls are those of the with-block: writes, then close *)
Lemma replay_ok_iff : forall sched (w : cworld) st data w',
  Forall (fun k => 0 <= k) sched ->
  (replay_ops net_step w st data (sched ++ [-1]) (Ok tt) = (w', Ok tt) <->
   (let '(w1, st1, r1) := write_sched net_step w st data sched in
    let '(w2, _, r2) := ws_close net_step w1 st1 in
    (w2, match r2 with Ok _ => r1 | _ => r2 end)) = (w', Ok tt)).
Proof.
  induction sched as [|k ks IH]; intros w st data w' Hk.
  - cbn [app replay_ops write_sched]. change (-1 <? 0) with true. cbn iota.
    destruct (ws_close net_step w st) as [[w1 st1] [[]| |]]; reflexivity.
  - inversion Hk as [|? ? Hk0 Hks]; subst. cbn [app replay_ops write_sched].
    replace (k <? 0) with false by lia.
    destruct (ws_write net_step w st (firstn (Z.to_nat k) data)) as [[w1 st1] [n|e|c]]; [apply IH; auto|..].
    all: split; [|destruct (ws_close net_step w1 st1) as [[w2 st2] [[]| |]]; discriminate].
    all: intros H; exfalso; eapply (replay_err_sticky (ks ++ [-1]) w1 st1 data); [|rewrite H; reflexivity]; discriminate.
Qed.

Lemma replay_write_ok_iff (w : cworld) idx sub size force data sched w' :
  Forall (fun k => 0 <= k) sched ->
  (replay_write net_step w idx sub size force data (sched ++ [-1]) = (w', Ok tt) <->
   with_write net_step w idx sub size force data sched = (w', Ok tt)).
Proof.
  intros Hk. unfold replay_write, with_write.
  destruct (ws_init net_step w idx sub size force) as [[w0 st0] [[]|e|c]]; [apply replay_ok_iff; auto|..].
  all: destruct (ws_close net_step w0 st0) as [[w1 st1] r1]; split; discriminate.
Qed.

Lemma valid_sched_nonneg exp sched len : valid_sched exp sched len -> 0 <= len -> Forall (fun k => 0 <= k) sched.
Proof.
  unfold valid_sched. destruct exp.
  - intros -> H. constructor; auto.
  - revert len. induction sched as [|k ks IH]; intros len Hv Hl; [constructor|].
    cbn in Hv. destruct Hv as [Hk Hv]. constructor; [lia|]. apply (IH _ Hv). lia.
Qed.

Lemma rs_init_missing (w : cworld) idx sub :
  n_fault (w_s w) = None -> mux_ok idx sub -> store_get idx sub (n_srv (w_s w)) = None ->
  exists w', rs_init net_step w idx sub = (w', rs_new, Abort 100794368) /\
             w_s w' = net_of (set_x XNone (n_srv (w_s w))).
Proof.
  intros Hf Hm Hg. rewrite rs_init_unfold, rr_spec by auto. unfold net_step.
  rewrite Hf, ref_ul_init, Hg by auto. eexists. split; reflexivity.
Qed.

Lemma srv_put_store idx sub data x s : mux_ok idx sub ->
  s_store (set_x x (store_put (mux_bytes idx sub) data s)) = (mux_key idx sub, data) :: s_store s.
Proof. intros Hm. cbn [set_x store_put s_store]. rewrite mux_decode by auto. reflexivity. Qed.

Lemma with_write_clean (w : cworld) idx sub data size force sched :
  net_wf (w_s w) -> n_fault (w_s w) = None ->
  mux_ok idx sub -> zlen data < 2 ^ 32 -> (size = None \/ size = Some (zlen data)) ->
  valid_sched (expedited size force) sched (zlen data) ->
  exists w', with_write net_step w idx sub size force data sched = (w', Ok tt) /\
    n_srv (w_s w') = set_x XNone (store_put (mux_bytes idx sub) data (n_srv (w_s w))) /\
    net_wf (w_s w') /\ n_fault (w_s w') = None.
Proof.
  intros Hwf Hf Hm Hl Hsz Hv.
  pose proof (with_write_spec w idx sub data size force sched Hwf Hm Hl Hsz Hv) as H.
  destruct (with_write net_step w idx sub size force data sched) as [w1 r].
  destruct (outcome_clean _ _ _ _ H Hf) as ([] & -> & Hs). eauto.
Qed.

Lemma run_xfer_clean (w : cworld) x :
  net_wf (w_s w) -> n_fault (w_s w) = None ->
  xfer_ok (s_style (n_srv (w_s w))) (s_store (n_srv (w_s w))) x ->
  exists w', run_xfer w x = (w', snd (spec_xfer (s_style (n_srv (w_s w))) (s_store (n_srv (w_s w))) x)) /\
    net_wf (w_s w') /\ n_fault (w_s w') = None /\
    s_store (n_srv (w_s w')) = fst (spec_xfer (s_style (n_srv (w_s w))) (s_store (n_srv (w_s w))) x) /\
    s_viol (n_srv (w_s w')) = s_viol (n_srv (w_s w)).
Proof.
  intros Hwf Hf Hok.
  destruct x as [idx sub data size force sched|idx sub data size force ops|idx sub odt mode|idx sub v];
    cbn [run_xfer xfer_ok spec_xfer fst snd] in *.
  - destruct Hok as (Hm & Hl & Hsz & Hv).
    destruct (with_write_clean w idx sub data size force sched Hwf Hf Hm Hl Hsz Hv) as (w1 & -> & Hs & Hwf1 & Hf1).
    exists w1. rewrite Hs, srv_put_store by auto. auto.
  - destruct Hok as (Hm & Hl & Hsz & sched & -> & Hnn & Hv).
    destruct (with_write_clean w idx sub data size force sched Hwf Hf Hm Hl Hsz Hv) as (w1 & E & Hs & Hwf1 & Hf1).
    apply (replay_write_ok_iff w idx sub size force data sched w1 Hnn) in E. rewrite E.
    exists w1. rewrite Hs, srv_put_store by auto. auto.
  - destruct Hok as (Hm & Hval). fold (store_get idx sub (n_srv (w_s w))) in *.
    destruct (store_get idx sub (n_srv (w_s w))) as [v|] eqn:Hg.
    + destruct Hval as (Hv & Hfu1 & Hfu2 & Hmode).
      assert (Hfo : ul_fault_ok idx sub (n_fault (w_s w))) by (rewrite Hf; exact I).
      destruct mode as [| |caps].
      * pose proof (sdo_upload_spec FUEL w idx sub (od_get_type odt sub) v Hwf Hm Hg Hv Hfo Hfu1 Hfu2) as H.
        destruct (sdo_upload net_step FUEL w idx sub _) as [w1 r].
        destruct (outcome_clean _ _ _ _ H Hf) as (out & -> & (-> & Hs) & Hwf1 & Hf1). exists w1. rewrite Hs. auto.
      * pose proof (read_whole_spec FUEL w idx sub v Hwf Hm Hg Hv Hfo Hfu1 Hfu2) as H.
        destruct (read_whole net_step FUEL w idx sub) as [[w1 size] r].
        destruct (outcome_clean _ _ _ _ H Hf) as (out & -> & (-> & _ & Hs) & Hwf1 & Hf1). exists w1. rewrite Hs. auto.
      * pose proof (open_read_spec FUEL caps w idx sub v Hwf Hm Hg Hv Hfo Hfu1) as H.
        destruct (open_read net_step FUEL caps w idx sub) as [w1 r].
        destruct (outcome_clean _ _ _ _ H Hf) as (out & -> & (rest & Hw & Hlen & x & Hs) & Hwf1 & Hf1).
        assert (rest = []) by (apply length_zero_iff_nil; rewrite Hw, app_length in *; lia). subst rest.
        rewrite app_nil_r in Hw. exists w1. rewrite Hs, Hw. auto.
    + destruct (rs_init_missing w idx sub Hf Hm Hg) as (w1 & E & Hs1).
      assert (Hw1 : net_wf (w_s w1) /\ n_fault (w_s w1) = None /\ s_store (n_srv (w_s w1)) = s_store (n_srv (w_s w)) /\
                    s_viol (n_srv (w_s w1)) = s_viol (n_srv (w_s w))) by (rewrite Hs1; unfold net_wf; cbn; auto).
      destruct mode as [| |caps]; unfold sdo_upload, read_whole, open_read; rewrite E; exists w1; auto.
  - eexists. split; [reflexivity|]. cbn [w_s with_srv n_srv n_fault store_put s_store s_viol].
    change [idx mod 256; idx / 256; sub] with (mux_bytes idx sub). rewrite mux_decode by exact Hok.
    exact (conj Hwf (conj Hf (conj eq_refl eq_refl))).
Qed.

Lemma run_tcase_clean full (w : cworld) t :
  net_wf (w_s w) -> n_fault (w_s w) = None -> t_fault t = None ->
  xfer_ok (t_style t) (s_store (n_srv (w_s w))) (t_x t) ->
  exists w' o, run_tcase full w t = (w', o) /\
    obs_result o = snd (spec_xfer (t_style t) (s_store (n_srv (w_s w))) (t_x t)) /\
    net_wf (w_s w') /\ n_fault (w_s w') = None /\
    s_store (n_srv (w_s w')) = fst (spec_xfer (t_style t) (s_store (n_srv (w_s w))) (t_x t)) /\
    s_viol (n_srv (w_s w')) = s_viol (n_srv (w_s w)).
Proof.
  intros Hwf Hf Htf Hok. unfold run_tcase. rewrite Htf.
  set (w0 := {| w_s := arm None (with_srv (set_style (t_style t)) (w_s w)); w_q := w_q w ++ t_pre t; w_log := [] |}).
  destruct (run_xfer_clean w0 (t_x t) (conj (proj1 Hwf) I) eq_refl Hok) as (w1 & -> & Hwf1 & Hf1 & Hst & Hv).
  eexists _, _. split; [reflexivity|]. cbn [w_s obs_result].
  replace (arm None (w_s w1)) with (w_s w1) by (destruct (w_s w1) as [nf ns]; cbn in Hf1; subst nf; reflexivity). auto.
Qed.

Lemma run_tcases_clean full : forall ts (w : cworld),
  net_wf (w_s w) -> n_fault (w_s w) = None -> seq_ok (s_store (n_srv (w_s w))) ts ->
  exists w' os, run_tcases full w ts = (w', os) /\
    map obs_result os = snd (spec_seq (s_store (n_srv (w_s w))) ts) /\
    s_store (n_srv (w_s w')) = fst (spec_seq (s_store (n_srv (w_s w))) ts) /\
    s_viol (n_srv (w_s w')) = s_viol (n_srv (w_s w)).
Proof.
  induction ts as [|t ts IH]; intros w Hwf Hf Hok.
  - exists w, []. cbn. auto.
  - cbn [seq_ok] in Hok. destruct Hok as (Htf & Hx & Hrest). cbn [run_tcases spec_seq].
    destruct (run_tcase_clean full w t Hwf Hf Htf Hx) as (w1 & o & -> & Ho & Hwf1 & Hf1 & Hst1 & Hv1).
    rewrite <- Hst1 in Hrest. destruct (IH w1 Hwf1 Hf1 Hrest) as (w2 & os & -> & Hos & Hst2 & Hv2).
    exists w2, (o :: os).
    destruct (spec_xfer (t_style t) (s_store (n_srv (w_s w))) (t_x t)) as [st1 v]. cbn [fst snd] in *. rewrite Hst1 in *.
    destruct (spec_seq st1 ts) as [st2 vs]. cbn [fst snd map] in *.
    split; [reflexivity|]. split; [congruence|]. split; [auto|congruence].
Qed.

Lemma srv_put_get idx sub data (s : sst) : mux_ok idx sub ->
  let s' := set_x XNone (store_put (mux_bytes idx sub) data s) in
  store_get idx sub s' = Some data /\
  (forall i j, mux_key i j <> mux_key idx sub -> store_get i j s' = store_get i j s).
Proof.
  intros Hm s'. unfold store_get, s'. rewrite srv_put_store by auto. cbn [zassoc]. rewrite Z.eqb_refl. split; [reflexivity|].
  intros i j Hne. replace (mux_key i j =? mux_key idx sub) with false by lia. reflexivity.
Qed.

Lemma download_delivers (w : cworld) idx sub data size force sched :
  net_wf (w_s w) -> n_fault (w_s w) = None ->
  mux_ok idx sub -> zlen data < 2 ^ 32 -> (size = None \/ size = Some (zlen data)) ->
  valid_sched (expedited size force) sched (zlen data) ->
  exists w', with_write net_step w idx sub size force data sched = (w', Ok tt) /\
    store_get idx sub (n_srv (w_s w')) = Some data /\
    (forall i j, mux_key i j <> mux_key idx sub -> store_get i j (n_srv (w_s w')) = store_get i j (n_srv (w_s w))) /\
    s_viol (n_srv (w_s w')) = s_viol (n_srv (w_s w)) /\
    s_x (n_srv (w_s w')) = XNone /\ net_wf (w_s w') /\ n_fault (w_s w') = None.
Proof.
  intros Hwf Hf Hm Hl Hsz Hv.
  destruct (with_write_clean w idx sub data size force sched Hwf Hf Hm Hl Hsz Hv) as (w' & E & Hs & Hwf' & Hf').
  destruct (srv_put_get idx sub data (n_srv (w_s w)) Hm) as [B1 B2].
  exists w'. rewrite Hs. auto 10.
Qed.

Lemma download_api (w : cworld) idx sub data force sched :
  net_wf (w_s w) -> n_fault (w_s w) = None -> mux_ok idx sub -> zlen data < 2 ^ 32 ->
  valid_sched (expedited (Some (zlen data)) force) sched (zlen data) ->
  exists w', sdo_download net_step w idx sub data force sched = (w', Ok tt) /\
    store_get idx sub (n_srv (w_s w')) = Some data /\
    s_viol (n_srv (w_s w')) = s_viol (n_srv (w_s w)).
Proof.
  intros Hwf Hf Hm Hl Hv. unfold sdo_download.
  destruct (download_delivers w idx sub data (Some (zlen data)) force sched Hwf Hf Hm Hl (or_intror eq_refl) Hv)
    as (w' & E & A & _ & B & _). exists w'. auto.
Qed.

Lemma upload_returns (w : cworld) idx sub odt v :
  net_wf (w_s w) -> n_fault (w_s w) = None -> mux_ok idx sub ->
  store_get idx sub (n_srv (w_s w)) = Some v -> zlen v < 2 ^ 32 ->
  (length (st_segs (s_style (n_srv (w_s w)))) < FUEL)%nat -> (length v + 2 <= FUEL)%nat ->
  exists w', sdo_upload net_step FUEL w idx sub odt = (w', Ok (expected_upload (s_style (n_srv (w_s w))) odt v)) /\
    s_store (n_srv (w_s w')) = s_store (n_srv (w_s w)) /\ s_viol (n_srv (w_s w')) = s_viol (n_srv (w_s w)) /\
    s_x (n_srv (w_s w')) = XNone /\ net_wf (w_s w') /\ n_fault (w_s w') = None.
Proof.
  intros Hwf Hf Hm Hg Hv H1 H2.
  pose proof (sdo_upload_spec FUEL w idx sub odt v Hwf Hm Hg Hv ltac:(rewrite Hf; exact I) H1 H2) as H.
  destruct (sdo_upload net_step FUEL w idx sub odt) as [w' r].
  destruct (outcome_clean _ _ _ _ H Hf) as (out & -> & (-> & Hs) & Hwf' & Hf'). exists w'. rewrite Hs. auto 10.
Qed.

Lemma array_member_declared ms t sub :
  zassoc 1 ms = Some (Some t) -> 0 < sub < 256 -> zassoc sub ms = None ->
  od_get_type (OArrT ms) sub = Some t.
Proof.
  intros H1 Hs Hn. unfold od_get_type. rewrite Hn, H1. replace ((0 <? sub) && (sub <? 256)) with true by lia. reflexivity.
Qed.

Lemma raw_read_returns (w : cworld) idx sub v :
  net_wf (w_s w) -> n_fault (w_s w) = None -> mux_ok idx sub ->
  store_get idx sub (n_srv (w_s w)) = Some v -> zlen v < 2 ^ 32 ->
  (length (st_segs (s_style (n_srv (w_s w)))) < FUEL)%nat -> (length v + 2 <= FUEL)%nat ->
  exists w' size, read_whole net_step FUEL w idx sub = (w', size, Ok (wire_value (s_style (n_srv (w_s w))) v)) /\
    s_viol (n_srv (w_s w')) = s_viol (n_srv (w_s w)) /\ n_fault (w_s w') = None.
Proof.
  intros Hwf Hf Hm Hg Hv H1 H2.
  pose proof (read_whole_spec FUEL w idx sub v Hwf Hm Hg Hv ltac:(rewrite Hf; exact I) H1 H2) as H.
  destruct (read_whole net_step FUEL w idx sub) as [[w' size] r].
  destruct (outcome_clean _ _ _ _ H Hf) as (out & -> & (-> & _ & Hs) & Hwf' & Hf'). exists w', size. rewrite Hs. auto.
Qed.

Lemma buffered_read_returns (w : cworld) idx sub v caps :
  net_wf (w_s w) -> n_fault (w_s w) = None -> mux_ok idx sub ->
  store_get idx sub (n_srv (w_s w)) = Some v -> zlen v < 2 ^ 32 ->
  (length (st_segs (s_style (n_srv (w_s w)))) < FUEL)%nat ->
  exists w' out rest, open_read net_step FUEL caps w idx sub = (w', Ok out) /\
    wire_value (s_style (n_srv (w_s w))) v = out ++ rest /\
    (Nat.min (length (wire_value (s_style (n_srv (w_s w))) v)) (active_caps caps) <= length out)%nat /\
    s_viol (n_srv (w_s w')) = s_viol (n_srv (w_s w)) /\ n_fault (w_s w') = None.
Proof.
  intros Hwf Hf Hm Hg Hv H1.
  pose proof (open_read_spec FUEL caps w idx sub v Hwf Hm Hg Hv ltac:(rewrite Hf; exact I) H1) as H.
  destruct (open_read net_step FUEL caps w idx sub) as [w' r].
  destruct (outcome_clean _ _ _ _ H Hf) as (out & -> & (rest & Hw & Hlen & x & Hs) & Hwf' & Hf').
  exists w', out, rest. rewrite Hs. auto.
Qed.

Lemma back_to_back full store ts : seq_ok store ts ->
  exists w' os, run_tcases full (init_world store) ts = (w', os) /\
    map obs_result os = snd (spec_seq store ts) /\
    s_store (n_srv (w_s w')) = fst (spec_seq store ts) /\ s_viol (n_srv (w_s w')) = [].
Proof. apply (run_tcases_clean full ts (init_world store)); [unfold net_wf; cbn; auto|reflexivity]. Qed.

(* a refused or unanswered initiation ends the transfer: close() of the discarded stream sends nothing *)
Lemma ws_init_failed_done {S} (peer : S -> frame -> S * list frame) (w : @world S) idx sub size force :
  let '(_, st0, r0) := ws_init peer w idx sub size force in sdo_error r0 -> ws_done st0 = true.
Proof.
  assert (Hne : forall k, k <> E_SDOCOMM -> @sdo_error unit (Err k) -> False).
  { intros k Hk [H1|[c H1]]; [inversion H1; contradiction|discriminate]. }
  assert (Hok : @sdo_error unit (Ok tt) -> False) by (intros [H|[c H]]; discriminate).
  unfold ws_init, pack_sdo. destruct (match size with None => true | Some z => _ end).
  - set (szb := match size with None => Ok _ | Some z => _ end).
    assert (Hsz : (exists sz, szb = Ok sz) \/ szb = Err E_STRUCT) by (unfold szb; destruct size; [destruct (_ && _)|]; eauto).
    destruct Hsz as [[sz ->]| ->]; [|intros H; destruct (Hne E_STRUCT ltac:(discriminate) H)].
    destruct (_ && (sub <? 256)); [|intros H; destruct (Hne E_STRUCT ltac:(discriminate) H)].
    destruct (request_response peer w _) as [w1 [resp|k|c]];
      [destruct (_ =? RESPONSE_DOWNLOAD)|destruct (k =? E_SDOCOMM) eqn:Ek|]; try reflexivity.
    + intros H. destruct (Hok H).
    + intros H. destruct (Hne k ltac:(lia) H).
  - destruct (_ && (sub <? 256)); intros H; [destruct (Hok H)|destruct (Hne E_STRUCT ltac:(discriminate) H)].
Qed.

Lemma failed_initiation_silent {S} (peer : S -> frame -> S * list frame) (w : @world S) idx sub size force data sched w0 st0 r0 :
  ws_init peer w idx sub size force = (w0, st0, r0) -> sdo_error r0 ->
  with_write peer w idx sub size force data sched = (w0, r0) /\
  forall ops, replay_write peer w idx sub size force data ops = (w0, r0).
Proof.
  intros Hi Herr. pose proof (ws_init_failed_done peer w idx sub size force) as Hd. rewrite Hi in Hd.
  unfold with_write, replay_write. rewrite Hi, (ws_close_done peer w0 st0 (Hd Herr)).
  destruct r0 as [[]|k|c]; [destruct Herr as [H|[c H]]; discriminate|auto..].
Qed.

Definition disturb (w : cworld) (k : nat) (f : fault) (pre : list frame) : cworld :=
  {| w_s := arm (Some (k, f)) (w_s w); w_q := w_q w ++ pre; w_log := w_log w |}.

Lemma disturb_wf w k f pre : net_wf (w_s w) -> fault_wf f -> net_wf (w_s (disturb w k f pre)).
Proof. unfold net_wf. intros [H _] Hf. cbn. auto. Qed.

Lemma rclass_cases {A} (r : res A) : rclass r -> (exists a, r = Ok a) \/ sdo_error r.
Proof. auto. Qed.

Lemma disturbed_download (w : cworld) idx sub data size force sched k f pre :
  net_wf (w_s w) -> fault_wf f ->
  mux_ok idx sub -> zlen data < 2 ^ 32 -> (size = None \/ size = Some (zlen data)) ->
  valid_sched (expedited size force) sched (zlen data) ->
  let '(w', r) := with_write net_step (disturb w k f pre) idx sub size force data sched in
  (r = Ok tt /\ store_get idx sub (n_srv (w_s w')) = Some data) \/ sdo_error r.
Proof.
  intros Hwf Hff Hm Hl Hsz Hv.
  pose proof (with_write_spec (disturb w k f pre) idx sub data size force sched (disturb_wf w k f pre Hwf Hff) Hm Hl Hsz Hv) as H.
  destruct (with_write net_step (disturb w k f pre) idx sub size force data sched) as [w' r].
  destruct (outcome_any _ _ _ _ H) as [([] & -> & Hs)|He]; [left|right; exact He].
  split; [reflexivity|]. rewrite Hs. apply srv_put_get, Hm.
Qed.

Lemma disturbed_upload (w : cworld) idx sub odt v k f pre :
  net_wf (w_s w) -> fault_wf f -> ul_fault_ok idx sub (Some (k, f)) ->
  mux_ok idx sub -> store_get idx sub (n_srv (w_s w)) = Some v -> zlen v < 2 ^ 32 ->
  (length (st_segs (s_style (n_srv (w_s w)))) < FUEL)%nat -> (length v + 2 <= FUEL)%nat ->
  let '(w', r) := sdo_upload net_step FUEL (disturb w k f pre) idx sub odt in
  r = Ok (expected_upload (s_style (n_srv (w_s w))) odt v) \/ sdo_error r.
Proof.
  intros Hwf Hff Hfo Hm Hg Hv H1 H2.
  pose proof (sdo_upload_spec FUEL (disturb w k f pre) idx sub odt v (disturb_wf w k f pre Hwf Hff) Hm Hg Hv Hfo H1 H2) as H.
  destruct (sdo_upload net_step FUEL (disturb w k f pre) idx sub odt) as [w' r].
  destruct (outcome_any _ _ _ _ H) as [(out & -> & -> & _)|He]; auto.
Qed.

Lemma disturbed_raw_read (w : cworld) idx sub v k f pre :
  net_wf (w_s w) -> fault_wf f -> ul_fault_ok idx sub (Some (k, f)) ->
  mux_ok idx sub -> store_get idx sub (n_srv (w_s w)) = Some v -> zlen v < 2 ^ 32 ->
  (length (st_segs (s_style (n_srv (w_s w)))) < FUEL)%nat -> (length v + 2 <= FUEL)%nat ->
  let '(w', _, r) := read_whole net_step FUEL (disturb w k f pre) idx sub in
  r = Ok (wire_value (s_style (n_srv (w_s w))) v) \/ sdo_error r.
Proof.
  intros Hwf Hff Hfo Hm Hg Hv H1 H2.
  pose proof (read_whole_spec FUEL (disturb w k f pre) idx sub v (disturb_wf w k f pre Hwf Hff) Hm Hg Hv Hfo H1 H2) as H.
  destruct (read_whole net_step FUEL (disturb w k f pre) idx sub) as [[w' size] r].
  destruct (outcome_any _ _ _ _ H) as [(out & -> & -> & _)|He]; auto.
Qed.

(* the mechanism, for every request of every transfer *)
Lemma lost_response_aborts_step (w : cworld) req n1 :
  net_step (w_s w) req = (n1, []) ->
  exists w' late, rr w req = (w', Err E_SDOCOMM) /\
    w_log w' = late ++ timeout_abort_frame :: (0 :: req) :: w_log w.
Proof.
  intros E. rewrite rr_spec, E. destruct (net_step n1 (abort_frame TIMEOUT_ABORT)) as [n2 rs2].
  eexists _, _. split; reflexivity.
Qed.

Lemma disturb_lost_seen w k f pre : lost_seen f (disturb w k f pre).
Proof. left. exists k. reflexivity. Qed.

Lemma lost_response_aborts_download (w : cworld) idx sub data size force sched k f pre : lost_like f ->
  lost_seen f (fst (with_write net_step (disturb w k f pre) idx sub size force data sched)).
Proof. intros Hl. apply with_write_closed; [apply lost_seen_closed; auto|apply disturb_lost_seen]. Qed.

Lemma lost_response_aborts_upload (w : cworld) idx sub odt k f pre : lost_like f ->
  lost_seen f (fst (sdo_upload net_step FUEL (disturb w k f pre) idx sub odt)).
Proof. intros Hl. apply sdo_upload_closed; [apply lost_seen_closed; auto|apply disturb_lost_seen]. Qed.

(* after any disturbed transfer (whatever is left in the response queue, whatever the server was doing)
   the next undisturbed transfer is a correct one *)
Definition settle (w : cworld) (late : list frame) : cworld :=
  {| w_s := arm None (w_s w); w_q := w_q w ++ late; w_log := [] |}.

Lemma settle_wf w late : net_wf (w_s w) -> net_wf (w_s (settle w late)) /\ n_fault (w_s (settle w late)) = None.
Proof. unfold net_wf. intros [H _]. cbn. auto. Qed.

(* the general form: from ANY well-formed state of client and server with no disturbance pending *)
Lemma next_transfer_clean_download (w : cworld) idx sub data size force sched :
  net_wf (w_s w) -> n_fault (w_s w) = None ->
  mux_ok idx sub -> zlen data < 2 ^ 32 -> (size = None \/ size = Some (zlen data)) ->
  valid_sched (expedited size force) sched (zlen data) ->
  exists w', with_write net_step w idx sub size force data sched = (w', Ok tt) /\
    store_get idx sub (n_srv (w_s w')) = Some data /\ s_viol (n_srv (w_s w')) = s_viol (n_srv (w_s w)).
Proof.
  intros Hwf Hf Hm Hl Hsz Hv.
  destruct (download_delivers w idx sub data size force sched Hwf Hf Hm Hl Hsz Hv) as (w' & E & A & _ & B & _).
  exists w'. auto.
Qed.

Lemma next_download_clean_after_download (w : cworld) k f pre late idx1 sub1 data1 size1 force1 sched1
    idx sub data size force sched :
  net_wf (w_s w) -> fault_wf f ->
  mux_ok idx sub -> zlen data < 2 ^ 32 -> (size = None \/ size = Some (zlen data)) ->
  valid_sched (expedited size force) sched (zlen data) ->
  let w1 := settle (fst (with_write net_step (disturb w k f pre) idx1 sub1 size1 force1 data1 sched1)) late in
  exists w', with_write net_step w1 idx sub size force data sched = (w', Ok tt) /\
    store_get idx sub (n_srv (w_s w')) = Some data /\ s_viol (n_srv (w_s w')) = s_viol (n_srv (w_s w1)).
Proof.
  intros Hwf Hff Hm Hl Hsz Hv w1.
  destruct (settle_wf _ late (with_write_closed _ net_wf_closed _ idx1 sub1 size1 force1 data1 sched1 (disturb_wf w k f pre Hwf Hff)))
    as [Hwf1 Hf1].
  exact (next_transfer_clean_download w1 idx sub data size force sched Hwf1 Hf1 Hm Hl Hsz Hv).
Qed.

Lemma next_upload_clean_after_upload (w : cworld) k f pre late idx1 sub1 odt1 idx sub odt v :
  net_wf (w_s w) -> fault_wf f -> mux_ok idx sub ->
  let w1 := settle (fst (sdo_upload net_step FUEL (disturb w k f pre) idx1 sub1 odt1)) late in
  store_get idx sub (n_srv (w_s w1)) = Some v -> zlen v < 2 ^ 32 ->
  (length (st_segs (s_style (n_srv (w_s w1)))) < FUEL)%nat -> (length v + 2 <= FUEL)%nat ->
  exists w', sdo_upload net_step FUEL w1 idx sub odt = (w', Ok (expected_upload (s_style (n_srv (w_s w1))) odt v)) /\
    s_viol (n_srv (w_s w')) = s_viol (n_srv (w_s w1)).
Proof.
  intros Hwf Hff Hm w1 Hg Hv H1 H2.
  destruct (settle_wf _ late (sdo_upload_closed _ net_wf_closed FUEL _ idx1 sub1 odt1 (disturb_wf w k f pre Hwf Hff)))
    as [Hwf1 Hf1].
  destruct (upload_returns w1 idx sub odt v Hwf1 Hf1 Hm Hg Hv H1 H2) as (w' & E & _ & A & _).
  exists w'. auto.
Qed.

(* never success with other data, whatever the buffer re-offers after a failure: success means that
   no raw call failed, and then the raw calls were those of the with-block *)
Lemma disturbed_buffered_download (w : cworld) idx sub data size force sched k f pre :
  net_wf (w_s w) -> fault_wf f ->
  mux_ok idx sub -> zlen data < 2 ^ 32 -> (size = None \/ size = Some (zlen data)) ->
  valid_sched (expedited size force) sched (zlen data) ->
  let '(w', r) := replay_write net_step (disturb w k f pre) idx sub size force data (sched ++ [-1]) in
  r = Ok tt -> store_get idx sub (n_srv (w_s w')) = Some data.
Proof.
  intros Hwf Hff Hm Hl Hsz Hv.
  destruct (replay_write net_step (disturb w k f pre) idx sub size force data (sched ++ [-1])) as [w' r] eqn:E.
  intros ->. apply replay_write_ok_iff in E; [|apply (valid_sched_nonneg _ _ _ Hv (zlen_nonneg data))].
  pose proof (disturbed_download w idx sub data size force sched k f pre Hwf Hff Hm Hl Hsz Hv) as H.
  rewrite E in H. destruct H as [[_ H]|[H|[c H]]]; [auto|discriminate..].
Qed.
