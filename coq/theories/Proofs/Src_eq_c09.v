(* Source tie (DESIGN.md 4.3) for C09: PdoMap.save and PdoMap.read as translated from the CURRENT source text (Gen/SrcC09.v)
   determine the model functions of Model/PdoCfg.v:
     src_save_values  -> the values of save_writes (COB-ID word first / last, parameters, mapping words, sub-indices)
     src_save_trace   -> the order of save_writes, the early return for cob_id None, the subscribe() call
     src_read_decode  -> the fields of the configuration read_cfg returns, which timers are read, subscribe()
     src_read_entry   -> one step of read_entries (decoding of a mapping word, the `if index and size` filter)
     src_raw_from     -> od_pick (DCF value, else default) / the SDO value *)
From Coq Require Import ZArith List Bool Lia.
From CV Require Import Base.Val Base.Bytes Gen.PdoTables Gen.SrcC09 Model.StrictDevice Model.PdoCfg.
Import ListNotations.
Open Scope Z_scope.

Definition osome {A} (o : option A) : bool := match o with Some _ => true | None => false end.
Definition oget (o : option Z) : Z := match o with Some x => x | None => 0 end.
Definition oelse (o : option Z) (d : Z) : Z := match o with Some x => x | None => d end.

(* the mapping word of the last entry (d if there is none) *)
Definition last_entry_word (m : list entry) (d : Z) : Z := fold_left (fun _ e => entry_word e) m d.

Lemma last_entry_word_app m e d : last_entry_word (m ++ [e]) d = entry_word e.
Proof. unfold last_entry_word. now rewrite fold_left_app. Qed.

Lemma fold_words (f : Z * Z -> entry -> Z * Z) :
  (forall a k e, f (a, k) e = (entry_word e, k + 1)) ->
  forall m a k, fold_left f m (a, k) = (last_entry_word m a, k + zlen m).
Proof.
  intros H. unfold zlen, last_entry_word. induction m as [|e m IH]; intros a k; cbn [fold_left length].
  - f_equal. lia.
  - rewrite H, IH. f_equal. lia.
Qed.

Lemma fold_trace mp (f : list write * Z -> entry -> list write * Z) :
  (forall t k e, f (t, k) e = (t ++ [(mp, k, entry_word e)], k + 1)) ->
  forall m t k, fold_left f m (t, k) = (t ++ entry_writes mp k m, k + zlen m).
Proof.
  intros H. unfold zlen. induction m as [|e m IH]; intros t k; cbn [fold_left length entry_writes].
  - rewrite app_nil_r. f_equal. lia.
  - rewrite H, IH. rewrite <- app_assoc. cbn [app]. f_equal. lia.
Qed.

Lemma rtr_bit_src c : (if negb (c_rtr c) then RTR_NOT_ALLOWED else 0) = rtr_bit c.
Proof. unfold rtr_bit. destruct (c_rtr c); reflexivity. Qed.

(* The translation tests the four "is not None" flags in turn, with the rest of the method repeated in every branch:
   one case per path, over variables. *)
Lemma src_save_values_flags cob rtr en th t ih i eh e sh y m w1 w2 w3 w5 w6 we wl :
  src_save_values false cob rtr en th t ih i eh e sh y false m w1 w2 w3 w5 w6 we wl =
  let rb := if negb rtr then RTR_NOT_ALLOWED else 0 in
  (Z.lor (Z.lor cob PDO_NOT_VALID) rb,
   if th then t else w2, if ih then i else w3, if eh then e else w5, if sh then y else w6,
   last_entry_word m we, 1 + zlen m, if en then Z.lor cob rb else wl).
Proof.
  destruct th, ih, eh, sh; unfold src_save_values; rewrite fold_words by (intros a k [[? ?] ?]; reflexivity);
    destruct en; reflexivity.
Qed.

Lemma oelse_src o d : (if osome o then oget o else d) = oelse o d.
Proof. destruct o; reflexivity. Qed.

Theorem src_save_values_eq : forall c cob w1 w2 w3 w5 w6 we wl,
  c_cob c = Some cob ->
  src_save_values false cob (c_rtr c) (c_enabled c)
    (osome (c_tt c)) (oget (c_tt c)) (osome (c_inhibit c)) (oget (c_inhibit c))
    (osome (c_event c)) (oget (c_event c)) (osome (c_sync c)) (oget (c_sync c))
    false (c_map c) w1 w2 w3 w5 w6 we wl =
  (Z.lor (Z.lor cob PDO_NOT_VALID) (rtr_bit c),
   oelse (c_tt c) w2, oelse (c_inhibit c) w3, oelse (c_event c) w5, oelse (c_sync c) w6,
   last_entry_word (c_map c) we, 1 + zlen (c_map c),
   if c_enabled c then Z.lor cob (rtr_bit c) else wl).
Proof. intros. rewrite src_save_values_flags. cbv zeta. rewrite rtr_bit_src, !oelse_src. reflexivity. Qed.

(* save() appends the writes to the trace one at a time, the optional ones under their tests *)
Definition snoc_if (b : bool) (x : write) (t : list write) : list write := if b then t ++ [x] else t.

Lemma snoc_if_opt i k o t : snoc_if (osome o) (i, k, oget o) t = t ++ opt_write i k o.
Proof. destruct o; [reflexivity|symmetry; apply app_nil_r]. Qed.

Lemma src_save_trace_flags com mp first cob rtr en th t ih i eh e sh y m cw tr sub :
  src_save_trace false com mp first cob rtr en th t ih i eh e sh y false m entry_word cw tr sub =
  (snoc_if en (com, 1, Z.lor cob (if negb rtr then RTR_NOT_ALLOWED else 0))
     (((snoc_if sh (com, 6, y) (snoc_if eh (com, 5, e) (snoc_if ih (com, 3, i) (snoc_if th (com, 2, t)
          (tr ++ [(com, 1, first)]))))
        ++ [(mp, 0, 0)]) ++ entry_writes mp 1 m) ++ [(mp, 0, zlen m)]),
   en || sub).
Proof.
  destruct th, ih, eh, sh; unfold src_save_trace; rewrite (fold_trace mp) by (intros; reflexivity);
    destruct en; reflexivity.
Qed.

Theorem src_save_trace_eq : forall com mp c cw,
  src_save_trace (negb (osome (c_cob c))) com mp
    (Z.lor (Z.lor (oget (c_cob c)) PDO_NOT_VALID) (rtr_bit c)) (oget (c_cob c)) (c_rtr c) (c_enabled c)
    (osome (c_tt c)) (oget (c_tt c)) (osome (c_inhibit c)) (oget (c_inhibit c))
    (osome (c_event c)) (oget (c_event c)) (osome (c_sync c)) (oget (c_sync c))
    false (c_map c) entry_word cw [] false =
  (save_writes com mp c, osome (c_cob c) && c_enabled c).
Proof.
  intros com mp c cw. unfold save_writes. destruct (c_cob c) as [cob|]; [|reflexivity]. cbn [osome oget negb andb].
  rewrite src_save_trace_flags, !snoc_if_opt, rtr_bit_src, orb_false_r. f_equal.
  unfold param_writes, final_writes, snoc_if. destruct (c_enabled c); rewrite <- ?app_assoc; reflexivity.
Qed.

Definition after_try (r : res (option Z)) (prev : option Z) : option Z :=
  match r with Ok o => o | _ => prev end.

Lemma read_opt_after_try get com k prev o : read_opt get com k prev = Ok o -> o = after_try (get com k) prev.
Proof.
  unfold read_opt, after_try. destruct (get com k) as [x|e|a]; [now intros [= ->]| |now intros [= ->]].
  destruct (e =? E_KEY); [now intros [= ->]|discriminate].
Qed.

Lemma rbind_ok {A B} (r : res A) (f : A -> res B) y : rbind r f = Ok y -> exists x, r = Ok x /\ f x = Ok y.
Proof. destruct r; [eauto|discriminate|discriminate]. Qed.

Lemma src_read_decode_flags raw1 raw2 rawn o3 o5 o6 i e y sub :
  src_read_decode raw1 raw2 rawn o3 o5 o6 i e y sub =
  let timer (o prev : option Z) := if raw2 >=? 254 then o else prev in
  (Z.land raw1 0x1FFFFFFF, Z.land raw1 PDO_NOT_VALID =? 0, Z.land raw1 RTR_NOT_ALLOWED =? 0, raw2,
   timer o3 i, timer o5 e, timer o6 y, true).
Proof. unfold src_read_decode. change (Z.geb raw2 254) with (raw2 >=? 254). destruct (raw2 >=? 254); reflexivity. Qed.

Theorem src_read_decode_eq : forall get objs com mp old subs raw1 raw2 c' s',
  get com 1 = Ok (Some raw1) -> get com 2 = Ok (Some raw2) ->
  read_cfg get objs com mp old subs = Ok (c', s') ->
  let '(cob, en, rtr, ty, inh, ev, sy, sub) :=
    src_read_decode raw1 raw2 0
      (after_try (get com 3) (c_inhibit old)) (after_try (get com 5) (c_event old)) (after_try (get com 6) (c_sync old))
      (c_inhibit old) (c_event old) (c_sync old) false in
  c_cob c' = Some cob /\ c_enabled c' = en /\ c_rtr c' = rtr /\ c_tt c' = Some ty /\
  c_inhibit c' = inh /\ c_event c' = ev /\ c_sync c' = sy /\
  s' = (if sub then subscribe c' subs else subs).
Proof.
  intros get objs com mp old subs raw1 raw2 c' s' G1 G2 H.
  unfold read_cfg in H. rewrite G1, G2 in H. cbn [rbind need_int] in H.
  apply rbind_ok in H as (inh & E3 & H). apply rbind_ok in H as (ev & E5 & H). apply rbind_ok in H as (sy & E6 & H).
  apply rbind_ok in H as (o0 & _ & H). apply rbind_ok in H as (n & _ & H). apply rbind_ok in H as (m & _ & H).
  injection H as <- <-. rewrite src_read_decode_flags. cbv beta iota zeta.
  cbn [c_cob c_enabled c_rtr c_tt c_inhibit c_event c_sync].
  destruct (raw2 >=? 254).
  - apply read_opt_after_try in E3, E5, E6. subst inh ev sy. repeat split; reflexivity.
  - injection E3 as <-. injection E5 as <-. injection E6 as <-. repeat split; reflexivity.
Qed.

Theorem src_read_entry_eq : forall get objs mp k f m v,
  get mp k = Ok (Some v) ->
  read_entries get objs mp k (S f) m =
  read_entries get objs mp (k + 1) f
    (match src_read_entry v false None with
     | Some (index, subindex, size) => add_variable objs m index subindex (Some size)
     | None => m
     end).
Proof.
  intros get objs mp k f m v G. cbn [read_entries]. rewrite G. cbn [rbind need_int].
  unfold src_read_entry. change 0xFF with 255. change 0x7F with 127.
  destruct (Z.shiftr v 16 =? 0); destruct (Z.land v 127 =? 0); reflexivity.
Qed.

Theorem src_raw_from_eq : forall v d raw,
  src_raw_from true v d raw = od_pick v d /\ src_raw_from false v d raw = raw.
Proof. intros [x|] d raw; split; reflexivity. Qed.
